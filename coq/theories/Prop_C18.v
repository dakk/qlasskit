(* Prop_C18.v — property C18 "The quadratic-model export has the function's
   minimisers as ground states", stated against the model M_Bqm.v of bqm.py as
   repaired by fix 1fe79c8 (the `_ret` test before the `isinstance(exp, Symbol)`
   test) and RELATIVE TO the meaning of pyqubo's
   gates given by harness/pyqubo_stub.py (pyqubo is not installed).
   merge_expressions is a contract oracle checked per program by harness/c18.py.
   The lemmas the proofs rest on are in P_Bqm.v. *)
From Coq Require Import List Bool NArith ZArith Arith Lia.
From QV Require Import Bits Bexp BexpTT M_Codec M_Bqm P_Bqm.
Import ListNotations.
Local Open Scope Z_scope.

(* SympyToBQM.visit: on every expression it accepts (And/Xor of two or more, Or of
   exactly two, Not, symbols, constants) and every 0/1 assignment the polynomial is
   the indicator of the expression, and it mentions exactly the expression's symbols *)
Theorem visit_indicator : forall e, visitable e = true ->
  exists p, visit e = Some p /\
    (forall env, peval (zenv env) p = b2z (beval env e)) /\
    (forall i, In i (pvars p) <-> In i (bsyms e)).
Proof. exact visit_ok. Qed.
Print Assumptions visit_indicator.

(* ... and it raises on every other expression (Or of arity <> 2, ITE, Implies) *)
Theorem visit_domain : forall e p, visit e = Some p -> visitable e = true.
Proof. exact visit_some_visitable. Qed.
Print Assumptions visit_domain.

Example visit_indicator_nonvacuous :
  visitable (BAnd [BSym 0; BNot (BSym 1); BXor [BSym 2; BSym 0; BSym 1]]) = true /\
  visit (BOr [BSym 0; BSym 1; BSym 2]) = None /\
  visit (BAnd [BSym 0; BSym 1; BSym 2]) = Some (PMul (PVar 0) (PMul (PVar 1) (PVar 2))).
Proof. repeat split. Qed.

(* total energy = number of true return bits; the polynomial mentions exactly the
   symbols of the (merged) return expressions: no foreign variable *)
Theorem energy_counts_true_bits : forall merged p, to_bqm_fixed merged = Some p ->
  (forall env, peval (zenv env) p = count_true env merged) /\
  (forall i, In i (pvars p) <-> exists se, In se merged /\ In i (bsyms (snd se))).
Proof.
  intros merged p H. unfold to_bqm_fixed, to_bqm_with in H.
  destruct (mapM_opt term_fixed merged) as [ts|] eqn:E; [|discriminate].
  apply mapM_opt_some in E. destruct (sum_terms_some ts p H) as [Hv Hs]. clear H. split.
  - intros env. rewrite Hv. unfold count_true. clear Hv Hs.
    induction E as [|se t merged ts Hse _ IH]; [reflexivity|]. cbn [fold_right].
    destruct (visit_some_ok _ _ Hse) as [Hind _]. now rewrite Hind, IH.
  - intros i. rewrite Hs, <- (in_flat_map (fun se => bsyms (snd se))). clear Hv Hs.
    induction E as [|se t merged ts Hse _ IH]; [reflexivity|]. cbn [flat_map].
    destruct (visit_some_ok _ _ Hse) as [_ Hsy]. now rewrite !in_app_iff, IH, Hsy.
Qed.
Print Assumptions energy_counts_true_bits.

Theorem ground_states : forall merged p, to_bqm_fixed merged = Some p ->
  (forall env, (forall env', peval (zenv env) p <= peval (zenv env') p) <->
               (forall env', count_true env merged <= count_true env' merged)) /\
  (forall env, 0 <= peval (zenv env) p) /\
  (forall env, peval (zenv env) p = 0 <-> forallb (fun se => negb (beval env (snd se))) merged = true) /\
  ((exists z, forallb (fun se => negb (beval z (snd se))) merged = true) ->
   forall env, (forall env', peval (zenv env) p <= peval (zenv env') p) <->
               forallb (fun se => negb (beval env (snd se))) merged = true).
Proof.
  intros merged p H. destruct (energy_counts_true_bits merged p H) as [He _].
  split; [|split; [|split]].
  - intros env. split; intros Hm env'; specialize (Hm env'); rewrite ?He in *; exact Hm.
  - intros env. rewrite He. apply count_true_nonneg.
  - intros env. rewrite He. apply count_true_zero.
  - intros [z Hz] env. rewrite <- count_true_zero. split.
    + intros Hm. specialize (Hm z). rewrite !He in Hm. apply count_true_zero in Hz.
      pose proof (count_true_nonneg env merged). lia.
    + intros H0 env'. rewrite !He, H0. apply count_true_nonneg.
Qed.
Print Assumptions ground_states.

Example ground_states_nonvacuous :
  (* _ret.0 = a ^ b ; _ret.1 = a & b  (a + b on one bit each) *)
  exists p, to_bqm_fixed [(3, BXor [BSym 0; BSym 1]); (4, BAnd [BSym 0; BSym 1])]%nat = Some p /\
            peval (zenv (fun _ => true)) p = 1 /\ peval (zenv (fun _ => false)) p = 0.
Proof. eexists. split; [reflexivity|]. split; reflexivity. Qed.

(* every argument bit some return bit depends on is mentioned *)
Theorem bqm_mentions_dependencies : forall merged p s e i env1 env2,
  to_bqm_fixed merged = Some p -> In (s, e) merged ->
  (forall j, j <> i -> env1 j = env2 j) -> beval env1 e <> beval env2 e -> In i (pvars p).
Proof.
  intros merged p s e i env1 env2 H Hin Hag Hne.
  destruct (energy_counts_true_bits merged p H) as [_ Hs]. apply Hs. exists (s, e). split; [exact Hin|].
  cbn [snd]. destruct (in_dec Nat.eq_dec i (bsyms e)) as [Hi|Hi]; [exact Hi|]. exfalso. apply Hne.
  apply beval_syms_ext. intros j Hj. apply Hag. intros ->. contradiction.
Qed.
Print Assumptions bqm_mentions_dependencies.

(* the code before fix 1fe79c8, `return a`:
   _ret = a is translated to AndConst(a, a, _ret) = a - 4 a _ret + 3 _ret, which is 0
   at (a, _ret) = (1, 1): the input a = 1 is a ground state although it makes the
   return bit true and a = 0 does not *)
Example ground_states_today_refuted :
  exists merged p env env0,
    to_bqm_today merged = Some p /\
    (forall env', peval (zenv env) p <= peval (zenv env') p) /\
    count_true env0 merged < count_true env merged.
Proof.
  exists [(2%nat, BSym 0)], (pq_andconst (PVar 0) (PVar 0) (PVar 2)), (fun _ => true), (fun _ => false).
  split; [reflexivity|]. split; [|reflexivity].
  intros env'. unfold zenv. cbn [pq_andconst peval b2z]. destruct (env' 0%nat), (env' 2%nat); cbn; discriminate.
Qed.

Theorem to_bqm_today_partial : forall merged,
  forallb (fun se => not_bare_symbol (snd se)) merged = true -> to_bqm_today merged = to_bqm_fixed merged.
Proof.
  intros merged H. unfold to_bqm_today, to_bqm_fixed, to_bqm_with.
  rewrite (mapM_opt_ext term_today term_fixed); [reflexivity|].
  intros se Hse. rewrite forallb_forall in H. specialize (H se Hse). unfold term_today, term_fixed.
  destruct (snd se); try reflexivity. discriminate.
Qed.
Print Assumptions to_bqm_today_partial.

(* decode_samples: the bits of the sample's input variables, in bitvec order, are
   decoded to the value whose encoding they are, in the argument's high-level type *)
Theorem decode_arg_encode : forall t v bits,
  wf_val t v = true -> val_to_bin t v = Some bits -> decode_arg t bits = Some v.
Proof.
  exact P_Codec.interpret_as_qtype_rev.
Qed.
Print Assumptions decode_arg_encode.

Example decode_arg_nonvacuous :
  decode_arg (TTuple [TQint 2; TBool]) [false; true; true] = Some (VTuple [VInt 2; VBool true]) /\
  decode_arg_noreverse (TTuple [TQint 2; TBool]) [false; true; true] = Some (VTuple [VInt 3; VBool false]).
Proof. split; reflexivity. Qed.
