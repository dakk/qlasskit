(* P_Bind.v — proofs about M_Bind (UnboundQlassf.bind on abstract names and values).

   A call environment is a run of assignments over the empty environment.  Such a run is determined
   by its bindings when the keys are distinct (run_assigns_in, run_assigns_not_in); hence assigning
   the parameters after the remaining formals is assigning all formals at once (run_assigns_join),
   which is the whole of bind_is_specialisation and of the irrelevance of the keyword order. *)
From Coq Require Import List Bool Arith Lia Permutation.
From QV Require Import M_Bind.
Import ListNotations.

Section BindProofs.
  Variables (name value result : Type).
  Variable name_eqb : name -> name -> bool.
  Hypothesis name_eqb_spec : forall a b, name_eqb a b = true <-> a = b.

  Notation env := (env name value).
  Notation upd_env := (upd_env name value name_eqb).
  Notation run_assigns := (run_assigns name value name_eqb).

  Lemma eqb_refl a : name_eqb a a = true.
  Proof. now apply name_eqb_spec. Qed.
  Lemma eqb_neq a b : a <> b -> name_eqb a b = false.
  Proof. intros H. destruct (name_eqb a b) eqn:E; [|reflexivity]. apply name_eqb_spec in E. contradiction. Qed.

  Lemma in_or_not x (l : list name) : In x l \/ ~ In x l.
  Proof.
    induction l as [|y l [IH|IH]]; [now right|left; now right|].
    destruct (name_eqb x y) eqn:E; [left; left; symmetry; now apply name_eqb_spec|].
    right. intros [->|H]; [rewrite eqb_refl in E; discriminate|contradiction].
  Qed.

  Lemma run_assigns_cons k v kw e : run_assigns ((k, v) :: kw) e = run_assigns kw (upd_env e k v).
  Proof. reflexivity. Qed.

  (* the environment after the assignments: the LAST assignment to a name wins,
     names not assigned keep their value *)
  Lemma run_assigns_not_in kw : forall e x, ~ In x (map fst kw) -> run_assigns kw e x = e x.
  Proof.
    induction kw as [|[k v] kw IH]; intros e x H; [reflexivity|].
    rewrite run_assigns_cons, IH by (intros Hc; apply H; now right). unfold M_Bind.upd_env.
    rewrite eqb_neq; [reflexivity|]. intros ->. apply H. now left.
  Qed.

  Lemma run_assigns_in kw : forall e k v, NoDup (map fst kw) -> In (k, v) kw -> run_assigns kw e k = Some v.
  Proof.
    induction kw as [|[k0 v0] kw IH]; intros e k v Hnd Hin; [destruct Hin|].
    cbn [map fst] in Hnd. apply NoDup_cons_iff in Hnd as [Hnin Hnd']. rewrite run_assigns_cons.
    destruct Hin as [[= -> ->]|Hin]; [|now apply IH].
    rewrite run_assigns_not_in by exact Hnin. unfold M_Bind.upd_env. now rewrite eqb_refl.
  Qed.

  Lemma in_keys {V} x (l : list (name * V)) : In x (map fst l) -> exists v, In (x, v) l.
  Proof. intros H. apply in_map_iff in H as ([k v] & <- & Hin). now exists v. Qed.

  Lemma map_fst_combine_eqlen (a : list name) (b : list value) : length a = length b -> map fst (combine a b) = a.
  Proof.
    revert b; induction a as [|x a IH]; intros [|y b] H; cbn in *; try reflexivity; try discriminate.
    f_equal. apply IH. now injection H.
  Qed.

  (* assigning [kw] after [fl] amounts to assigning [al], when [al] holds both and nothing else *)
  Lemma run_assigns_join (kw fl al : list (name * value)) e x :
    NoDup (map fst kw) -> NoDup (map fst fl) -> NoDup (map fst al) ->
    (forall k v, In (k, v) kw -> In (k, v) al) -> (forall k v, In (k, v) fl -> In (k, v) al) ->
    (forall k, In k (map fst al) -> In k (map fst kw) \/ In k (map fst fl)) ->
    run_assigns kw (run_assigns fl e) x = run_assigns al e x.
  Proof.
    intros Hkw Hfl Hal Hkw_in Hfl_in Hcover.
    destruct (in_or_not x (map fst kw)) as [Hin|Hnin].
    - apply in_keys in Hin as (v & Hin). rewrite (run_assigns_in kw _ x v Hkw Hin).
      symmetry. apply run_assigns_in; auto.
    - rewrite run_assigns_not_in by exact Hnin.
      destruct (in_or_not x (map fst fl)) as [Hinf|Hninf].
      + apply in_keys in Hinf as (v & Hin). rewrite (run_assigns_in fl _ x v Hfl Hin).
        symmetry. apply run_assigns_in; auto.
      + rewrite !run_assigns_not_in; [reflexivity| |exact Hninf].
        intros Hc. destruct (Hcover x Hc); contradiction.
  Qed.

  (* binding is specialisation: the bound function called on the remaining
     arguments sees exactly the environment the unbound function sees when called
     with the parameters set (parameters and remaining formals are disjoint and
     distinct), whatever the positions of the parameters in the signature.  The proof does
     not use the disjointness: both lists embed in the full call, whose formals are distinct *)
  Theorem bind_is_specialisation (body : env -> result) kw formals actuals all_formals all_actuals :
    NoDup (map fst kw) -> NoDup all_formals -> length all_formals = length all_actuals ->
    length formals = length actuals -> NoDup formals ->
    (forall k, In k (map fst kw) -> ~ In k formals) ->
    (* the full call passes the same value for every name *)
    (forall k v, In (k, v) kw -> In (k, v) (combine all_formals all_actuals)) ->
    (forall k v, In (k, v) (combine formals actuals) -> In (k, v) (combine all_formals all_actuals)) ->
    (forall k, In k all_formals -> In k (map fst kw) \/ In k formals) ->
    (forall e1 e2 : env, (forall x, e1 x = e2 x) -> body e1 = body e2) ->
    bound_call name value result name_eqb body kw formals actuals =
    body (call_env name value name_eqb all_formals all_actuals).
  Proof.
    intros Hkw Hall Hlen_all Hlen Hnf _ Hkw_in Hf_in Hcover Hext.
    apply Hext. intros x. unfold call_env.
    apply run_assigns_join; rewrite ?map_fst_combine_eqlen by assumption; assumption.
  Qed.
End BindProofs.
