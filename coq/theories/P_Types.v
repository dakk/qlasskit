(* P_Types.v — theorems about the types-layer model M_Types.v, for every width,
   every operand length and every assignment of the symbols.  A list of
   expressions is read as a number (bv, fxv for the Qfixed representation), the
   result of a method through has_val / fx_val / cmp_val, and each theorem says which
   arithmetic function of the operands' numbers the method computes. *)
From Coq Require Import List Bool NArith ZArith Arith Lia.
From QV Require Import Bits Bexp BexpTT M_Codec P_Codec Generated M_Types.
Import ListNotations.
Local Open Scope N_scope.

(* numeric value of a list of expressions under an assignment *)
Definition bv (rho : nat -> bool) (l : list bexp) : N := bits_val (map (beval rho) l).
(* Bits and P_Codec spell this 2 ^ N.of_nat n: [unfold p2] / [fold (p2 n)] pass between the two *)
Definition p2 (n : nat) : N := 2 ^ N.of_nat n.
Definition rho0 : nat -> bool := fun _ => false.

(* a typed expression whose list has exactly BIT_SIZE elements *)
Definition wf_te (v : texp) : Prop := length (snd v) = bit_size (fst v).

Lemma p2_S n : p2 (S n) = 2 * p2 n.
Proof. apply pow2_S. Qed.
Lemma p2_pos n : 0 < p2 n.
Proof. apply pow2_pos. Qed.
Lemma p2_nz n : p2 n <> 0.
Proof. apply pow2_nz. Qed.
Lemma p2_add a b : p2 (a + b) = p2 a * p2 b.
Proof. unfold p2. now rewrite Nat2N.inj_add, N.pow_add_r. Qed.
Lemma p2_le a b : (a <= b)%nat -> p2 a <= p2 b.
Proof. intros H. unfold p2. apply N.pow_le_mono_r; lia. Qed.
Lemma p2_lt a b : (a < b)%nat -> p2 a < p2 b.
Proof. intros H. unfold p2. apply N.pow_lt_mono_r; lia. Qed.
Lemma p2_split a b : (a <= b)%nat -> p2 b = p2 a * p2 (b - a).
Proof. intros H. rewrite <- p2_add. f_equal. lia. Qed.

Lemma bits_val_lt l : bits_val l < p2 (length l).
Proof. apply bits_val_bound. Qed.

Lemma bv_lt rho l : bv rho l < p2 (length l).
Proof. unfold bv. pose proof (bits_val_lt (map (beval rho) l)) as H. now rewrite map_length in H. Qed.

Lemma bv_app rho a b : bv rho (a ++ b) = bv rho a + p2 (length a) * bv rho b.
Proof. unfold bv, p2. now rewrite map_app, bits_val_app, map_length. Qed.

Lemma bv_cons rho x l : bv rho (x :: l) = N.b2n (beval rho x) + 2 * bv rho l.
Proof. reflexivity. Qed.

Lemma bv_false rho k : bv rho (repeat bfalse k) = 0.
Proof. induction k as [|k IH]; [reflexivity|]. cbn [repeat]. now rewrite bv_cons, IH. Qed.

Lemma bv_firstn rho w l : bv rho (firstn w l) = bv rho l mod p2 w.
Proof. unfold bv. rewrite <- firstn_map. apply bits_val_firstn. Qed.
Lemma bv_skipn rho k l : bv rho (skipn k l) = bv rho l / p2 k.
Proof. unfold bv. rewrite <- skipn_map. apply bits_val_skipn. Qed.

Lemma fill_bits cls v :
  snd (fill cls v) = snd v ++ repeat bfalse (bit_size cls - length (snd v)).
Proof.
  unfold fill. destruct (Nat.leb_spec (bit_size cls) (length (snd v))) as [H|H]; cbn [snd].
  - replace (bit_size cls - length (snd v))%nat with 0%nat by lia. cbn [repeat]. now rewrite app_nil_r.
  - reflexivity.
Qed.

Lemma fill_type cls v :
  fst (fill cls v) = if (bit_size cls <=? length (snd v))%nat then fst v else cls.
Proof. unfold fill. now destruct (bit_size cls <=? length (snd v))%nat. Qed.

Lemma fill_length cls v : length (snd (fill cls v)) = Nat.max (length (snd v)) (bit_size cls).
Proof. rewrite fill_bits, app_length, repeat_length. lia. Qed.

Theorem fill_bv rho cls v : bv rho (snd (fill cls v)) = bv rho (snd v).
Proof. rewrite fill_bits, bv_app, bv_false. now rewrite N.mul_0_r, N.add_0_r. Qed.

Lemma crop_bits cls v : snd (crop cls v) = firstn (bit_size cls) (snd v).
Proof.
  unfold crop. destruct (Nat.leb_spec (length (snd v)) (bit_size cls)) as [H|H]; cbn [snd].
  - now rewrite firstn_all2.
  - reflexivity.
Qed.

Lemma crop_type cls v :
  fst (crop cls v) = if (length (snd v) <=? bit_size cls)%nat then fst v else cls.
Proof. unfold crop. now destruct (length (snd v) <=? bit_size cls)%nat. Qed.

Lemma crop_length cls v : length (snd (crop cls v)) = Nat.min (length (snd v)) (bit_size cls).
Proof. rewrite crop_bits, firstn_length. lia. Qed.

Theorem crop_bv rho cls v : bv rho (snd (crop cls v)) = bv rho (snd v) mod p2 (bit_size cls).
Proof. rewrite crop_bits. apply bv_firstn. Qed.

Theorem shift_left_spec rho v k r : shift_left v k = Some r ->
  fst r = fst v /\
  length (snd r) = Nat.min (k + length (snd v)) (bit_size (fst v)) /\
  bv rho (snd r) = (bv rho (snd v) * p2 k) mod p2 (bit_size (fst v)).
Proof.
  unfold shift_left. destruct (is_qtype (fst v)); [|discriminate]. intros [= <-].
  split; [|split].
  - rewrite crop_type. cbn [fst snd]. now destruct (_ <=? _)%nat.
  - rewrite crop_length. cbn [snd]. now rewrite app_length, repeat_length.
  - rewrite crop_bv. cbn [snd]. now rewrite bv_app, bv_false, repeat_length, N.add_0_l, N.mul_comm.
Qed.

Theorem shift_left_total v k : is_qtype (fst v) = true -> exists r, shift_left v k = Some r.
Proof. intros H. unfold shift_left. rewrite H. eauto. Qed.

Theorem shift_right_spec rho v k r : shift_right v k = Some r ->
  fst r = fst v /\
  length (snd r) = Nat.max (length (snd v) - k) (bit_size (fst v)) /\
  bv rho (snd r) = bv rho (snd v) / p2 k.
Proof.
  unfold shift_right. destruct (is_qtype (fst v)); [|discriminate]. intros [= <-].
  split; [|split].
  - rewrite fill_type. cbn [fst snd]. now destruct (_ <=? _)%nat.
  - rewrite fill_length. cbn [snd]. now rewrite skipn_length.
  - rewrite fill_bv. cbn [snd]. apply bv_skipn.
Qed.

Lemma beval_b_eq rho a b : beval rho (b_eq a b) = Bool.eqb (beval rho a) (beval rho b).
Proof.
  unfold b_eq. rewrite beval_not, beval_xor. cbn [map fold_right].
  destruct (beval rho a), (beval rho b); reflexivity.
Qed.

Lemma beval_and2 rho a b : beval rho (BAnd [a; b]) = beval rho a && beval rho b.
Proof. rewrite beval_and. cbn [forallb]. now rewrite andb_true_r. Qed.
Lemma beval_or2 rho a b : beval rho (BOr [a; b]) = beval rho a || beval rho b.
Proof. rewrite beval_or. cbn [existsb]. now rewrite orb_false_r. Qed.
Lemma beval_xor2 rho a b : beval rho (BXor [a; b]) = xorb (beval rho a) (beval rho b).
Proof. rewrite beval_xor. cbn [map fold_right]. now rewrite xorb_false_r. Qed.
Lemma beval_b_neq rho a b : beval rho (b_neq a b) = xorb (beval rho a) (beval rho b).
Proof. apply beval_xor2. Qed.

Theorem full_adder_spec rho c a b :
  N.b2n (beval rho (snd (full_adder c a b))) + 2 * N.b2n (beval rho (fst (full_adder c a b)))
  = N.b2n (beval rho c) + N.b2n (beval rho a) + N.b2n (beval rho b).
Proof.
  unfold full_adder. cbn [fst snd]. rewrite !beval_xor2, !beval_and2, !beval_xor2.
  destruct (beval rho c), (beval rho a), (beval rho b); reflexivity.
Qed.

Lemma eq_zip_spec rho l r ex :
  beval rho (eq_zip l r ex)
  = beval rho ex && forallb eqb2 (combine (map (beval rho) l) (map (beval rho) r)).
Proof.
  unfold eq_zip. revert r ex; induction l as [|a l IH]; intros [|b r] ex;
    cbn [combine map fold_left forallb]; try (now rewrite andb_true_r).
  rewrite IH. cbn [fst snd]. rewrite beval_and2, beval_b_eq. unfold eqb2 at 2. cbn [fst snd].
  now rewrite andb_assoc.
Qed.

Lemma and_not_all_spec rho tl ex :
  beval rho (and_not_all tl ex) = beval rho ex && (bv rho tl =? 0).
Proof.
  unfold bv. rewrite <- forallb_negb_zero. unfold and_not_all.
  revert ex; induction tl as [|x tl IH]; intros ex; cbn [fold_left map forallb].
  - now rewrite andb_true_r.
  - rewrite IH, beval_and2, beval_not. now rewrite andb_assoc.
Qed.

(* the Or-chains are the negations of the And-chains *)
Lemma neq_zip_neg rho l r ex ex' : beval rho ex = negb (beval rho ex') ->
  beval rho (neq_zip l r ex) = negb (beval rho (eq_zip l r ex')).
Proof.
  unfold neq_zip, eq_zip. revert r ex ex'; induction l as [|a l IH]; intros [|b r] ex ex' H;
    cbn [combine fold_left]; try exact H.
  apply IH. cbn [fst snd]. rewrite beval_or2, beval_and2, beval_b_neq, beval_b_eq, H.
  destruct (beval rho ex'), (beval rho a), (beval rho b); reflexivity.
Qed.

Lemma or_all_neg rho tl ex ex' : beval rho ex = negb (beval rho ex') ->
  beval rho (or_all tl ex) = negb (beval rho (and_not_all tl ex')).
Proof.
  unfold or_all, and_not_all. revert ex ex'; induction tl as [|x tl IH]; intros ex ex' H;
    cbn [fold_left]; [exact H|].
  apply IH. rewrite beval_or2, beval_and2, beval_not, H.
  destruct (beval rho ex'), (beval rho x); reflexivity.
Qed.

Lemma or_all_spec rho tl ex :
  beval rho (or_all tl ex) = beval rho ex || negb (bv rho tl =? 0).
Proof.
  rewrite (or_all_neg rho tl ex (BNot ex)) by (rewrite beval_not; now rewrite negb_involutive).
  rewrite and_not_all_spec, beval_not. destruct (beval rho ex), (bv rho tl =? 0); reflexivity.
Qed.

(* QintImp.eq: operands of ANY two lengths *)
Theorem qint_eq_bits_spec rho l r :
  beval rho (qint_eq_bits l r) = (bv rho l =? bv rho r).
Proof.
  unfold qint_eq_bits. rewrite !and_not_all_spec, eq_zip_spec. cbn [beval geval btrue andb].
  unfold bv. rewrite <- !skipn_map, <- eq_sem_spec, eq_sem_zip, !map_length. reflexivity.
Qed.

Theorem qint_neq_bits_spec rho l r :
  beval rho (qint_neq_bits l r) = negb (bv rho l =? bv rho r).
Proof.
  rewrite <- qint_eq_bits_spec. unfold qint_neq_bits, qint_eq_bits.
  apply or_all_neg, or_all_neg, neq_zip_neg. reflexivity.
Qed.

Definition ev_ex (rho : nat -> bool) (ex : option bexp) : bool :=
  match ex with Some e => beval rho e | None => false end.

(* The loop of gt runs from the most significant pair down.  When the pairs
   processed so far denote X (left) and Y (right): ex says Y < X, the
   conjunction of prev says X = Y, and ex is bound as soon as prev is not empty.
   Processing one more pair puts its two bits in front of X and Y. *)
Definition gt_inv (rho : nat -> bool) (st : option bexp * list bexp) (X Y : N) : Prop :=
  forallb (beval rho) (snd st) = (X =? Y) /\ ev_ex rho (fst st) = (Y <? X)
  /\ (fst st = None -> snd st = []).

Lemma gt_step_inv rho st a b X Y : gt_inv rho st X Y ->
  gt_inv rho (gt_step st (a, b)) (N.b2n (beval rho a) + 2 * X) (N.b2n (beval rho b) + 2 * Y).
Proof.
  destruct st as [ex prev]. intros (He & Hg & Hn). cbn [fst snd] in *.
  unfold gt_inv, gt_step. cbn [fst snd ev_ex]. rewrite eqb_cons, ltb_cons, <- He, <- Hg.
  split; [|split; [|discriminate]].
  - rewrite forallb_app. cbn [forallb]. rewrite beval_b_eq, andb_true_r. apply andb_comm.
  - destruct prev as [|x prev]; [|destruct ex as [e|]; [|now discriminate Hn]].
    + (* nothing processed: X = Y *)
      symmetry in He. apply N.eqb_eq in He. rewrite Hg, He, N.ltb_irrefl.
      cbn [forallb orb andb]. now rewrite beval_and2, beval_not.
    + cbn [ev_ex]. rewrite beval_or2, beval_and, forallb_app. cbn [forallb].
      now rewrite beval_not, andb_true_r.
Qed.

Lemma gt_loop_inv rho ps :
  gt_inv rho (fold_left gt_step (rev ps) (None, [])) (bv rho (map fst ps)) (bv rho (map snd ps)).
Proof.
  induction ps as [|[a b] ps IH]; [repeat split|].
  cbn [rev map fst snd]. rewrite fold_left_app, !bv_cons. now apply gt_step_inv.
Qed.

(* the loop compares the two operands cut to the shorter length *)
Lemma gt_loop_val rho l r ex : gt_loop l r = Some ex ->
  beval rho ex = (bv rho r mod p2 (length l) <? bv rho l mod p2 (length r)).
Proof.
  unfold gt_loop. intros H. destruct (gt_loop_inv rho (combine l r)) as (_ & Hg & _).
  rewrite H, map_fst_combine, map_snd_combine, !bv_firstn in Hg. exact Hg.
Qed.

(* ex stays unbound exactly when zip(l, r) is empty *)
Lemma gt_loop_none l r : gt_loop l r = None <-> l = [] \/ r = [].
Proof.
  unfold gt_loop. destruct l as [|a l]; [now intuition|]. destruct r as [|b r]; [now intuition|].
  cbn [combine rev]. rewrite fold_left_app. cbn [fold_left].
  destruct (fold_left gt_step (rev (combine l r)) (None, [])) as [ex prev].
  split; [discriminate|]. now intros [H|H].
Qed.

(* QintImp.gt: operands of ANY two (non-zero) lengths *)
Theorem qint_gt_bits_spec rho l r e : qint_gt_bits l r = Some e ->
  beval rho e = (bv rho r <? bv rho l).
Proof.
  unfold qint_gt_bits. destruct (gt_loop l r) as [ex|] eqn:Hg; [|discriminate]. intros [= <-].
  rewrite and_not_all_spec, or_all_spec, (gt_loop_val rho l r ex Hg), !bv_skipn.
  apply gt_tails; apply bv_lt.
Qed.

(* UnboundLocalError exactly when one operand has no bits *)
Theorem qint_gt_bits_none l r : qint_gt_bits l r = None <-> l = [] \/ r = [].
Proof.
  rewrite <- gt_loop_none. unfold qint_gt_bits. destruct (gt_loop l r); split; congruence.
Qed.

(* lt, lte and gte are built from the expressions g of gt and e of eq *)
Lemma order_family rho g e x y : beval rho g = (y <? x) -> beval rho e = (x =? y) ->
  beval rho (BAnd [BNot g; BNot e]) = (x <? y)
  /\ beval rho (BNot g) = (x <=? y)
  /\ beval rho (BNot (BAnd [BNot g; BNot e])) = (y <=? x).
Proof.
  intros Hg He.
  assert (Hlt : beval rho (BAnd [BNot g; BNot e]) = (x <? y))
    by (rewrite beval_and2, !beval_not, Hg, He; apply ltb_of_gt_eq).
  split; [exact Hlt|]. rewrite !beval_not, Hlt, Hg. split; symmetry; apply N.leb_antisym.
Qed.

(* a comparison method returns (bool, e) with e meaning f *)
Definition cmp_val (x : option texp) (f : (nat -> bool) -> bool) : Prop :=
  exists e, x = Some (TBool, [e]) /\ forall rho, beval rho e = f rho.

Lemma cmp_val_some e f : (forall rho, beval rho e = f rho) -> cmp_val (Some (TBool, [e])) f.
Proof. intros H. exists e. auto. Qed.

Lemma cmp_val_ext x f g : cmp_val x f -> (forall rho, f rho = g rho) -> cmp_val x g.
Proof. intros (e & H & V) E. exists e. split; [exact H|]. intros rho. now rewrite V. Qed.

Theorem qint_eq_spec tl tr : is_qtype (fst tl) = true -> is_qtype (fst tr) = true ->
  cmp_val (qint_eq tl tr) (fun rho => bv rho (snd tl) =? bv rho (snd tr))
  /\ cmp_val (qint_neq tl tr) (fun rho => negb (bv rho (snd tl) =? bv rho (snd tr))).
Proof.
  intros Ql Qr. unfold qint_eq, qint_neq, guard2. rewrite Ql, Qr. cbn [andb].
  split; apply cmp_val_some; intros rho; [apply qint_eq_bits_spec|apply qint_neq_bits_spec].
Qed.

(* gt, lt, lte and gte all go through qint_gt_bits; k is what each makes of its expression g *)
Lemma qint_order_of_gt tl tr :
  let e := qint_eq_bits (snd tl) (snd tr) in
  let via k := guard2 tl tr (as_bool (option_map k (qint_gt_bits (snd tl) (snd tr)))) in
  qint_gt tl tr = via (fun g => g) /\ qint_lt tl tr = via (fun g => BAnd [BNot g; BNot e])
  /\ qint_lte tl tr = via BNot /\ qint_gte tl tr = via (fun g => BNot (BAnd [BNot g; BNot e])).
Proof.
  unfold qint_gt, qint_lt, qint_lte, qint_gte, qint_gte_bits, qint_lt_bits, qint_lte_bits.
  now destruct (qint_gt_bits (snd tl) (snd tr)).
Qed.

(* mixed widths: any two non-empty operands *)
Theorem qint_order_spec tl tr : is_qtype (fst tl) = true -> is_qtype (fst tr) = true ->
  snd tl <> [] -> snd tr <> [] ->
  cmp_val (qint_gt tl tr) (fun rho => bv rho (snd tr) <? bv rho (snd tl))
  /\ cmp_val (qint_lt tl tr) (fun rho => bv rho (snd tl) <? bv rho (snd tr))
  /\ cmp_val (qint_lte tl tr) (fun rho => bv rho (snd tl) <=? bv rho (snd tr))
  /\ cmp_val (qint_gte tl tr) (fun rho => bv rho (snd tr) <=? bv rho (snd tl)).
Proof.
  intros Ql Qr Nl Nr. destruct (qint_order_of_gt tl tr) as (-> & -> & -> & ->).
  unfold guard2. rewrite Ql, Qr. cbn [andb].
  destruct (qint_gt_bits (snd tl) (snd tr)) as [g|] eqn:Hg; [|apply qint_gt_bits_none in Hg; tauto].
  pose proof (fun rho => qint_gt_bits_spec rho _ _ g Hg) as Vg.
  pose proof (fun rho => order_family rho g _ _ _ (Vg rho) (qint_eq_bits_spec rho (snd tl) (snd tr))) as H.
  cbn [as_bool option_map].
  repeat split; apply cmp_val_some; intros rho; [apply Vg|apply H..].
Qed.

(* UnboundLocalError: gt, lt, lte, gte on an operand with no bits *)
Theorem qint_order_raises tl tr : snd tl = [] \/ snd tr = [] ->
  qint_gt tl tr = None /\ qint_lt tl tr = None /\ qint_lte tl tr = None /\ qint_gte tl tr = None.
Proof.
  intros H. apply qint_gt_bits_none in H. destruct (qint_order_of_gt tl tr) as (-> & -> & -> & ->).
  rewrite H. unfold guard2.
  destruct (is_qtype (fst tl) && is_qtype (fst tr)); repeat split.
Qed.

(* has_val x t w f: the method returns a value of type t with w bits, meaning f *)
Definition has_val (x : option texp) (t : ty) (w : nat) (f : (nat -> bool) -> N) : Prop :=
  exists r, x = Some r /\ fst r = t /\ length (snd r) = w /\ forall rho, bv rho (snd r) = f rho.

Lemma has_val_wf x t w f : has_val x t w f -> bit_size t = w ->
  exists r, x = Some r /\ wf_te r.
Proof. intros (r & H & Ht & Hl & _) Hw. exists r. split; [exact H|]. unfold wf_te. congruence. Qed.

Lemma has_val_some r t w f :
  fst r = t -> length (snd r) = w -> (forall rho, bv rho (snd r) = f rho) -> has_val (Some r) t w f.
Proof. intros T L V. exists r. auto. Qed.

Lemma has_val_ext x t w f t' w' f' :
  has_val x t w f -> t = t' -> w = w' -> (forall rho, f rho = f' rho) -> has_val x t' w' f'.
Proof.
  intros (r & H & T & L & V) <- <- E. exists r. repeat split; try assumption.
  intros rho. now rewrite V.
Qed.

(* a method that goes on with the result of another *)
Lemma has_val_bind x k t w f t' w' f' : has_val x t w f ->
  (forall r, fst r = t -> length (snd r) = w -> (forall rho, bv rho (snd r) = f rho) ->
             has_val (k r) t' w' f') ->
  has_val (obind x k) t' w' f'.
Proof. intros (r & -> & T & L & V) H. now apply H. Qed.

Lemma fill_id cls v : (bit_size cls <= length (snd v))%nat -> fill cls v = v.
Proof. intros H. unfold fill. apply Nat.leb_le in H. now rewrite H. Qed.

Lemma fill_wf cls v : wf_te v -> wf_te (fill cls v).
Proof.
  unfold wf_te. intros H. rewrite fill_length, fill_type.
  destruct (Nat.leb_spec (bit_size cls) (length (snd v))); lia.
Qed.

Lemma fill_qtype cls v : is_qtype cls = true -> is_qtype (fst v) = true -> is_qtype (fst (fill cls v)) = true.
Proof. intros H1 H2. rewrite fill_type. now destruct (_ <=? _)%nat. Qed.

(* the type add returns: the wider operand's (the left one on a tie), unless cls is wider still *)
Definition wider (tl tr : texp) : ty :=
  if (length (snd tl) <? length (snd tr))%nat then fst tr else fst tl.
Definition add_type (cls : ty) (tl tr : texp) : ty :=
  if (bit_size (wider tl tr) <? bit_size cls)%nat then cls else wider tl tr.
(* bitwise_generic returns the RIGHT operand's type after padding *)
Definition bitwise_type (tl tr : texp) : ty :=
  if (length (snd tr) <? length (snd tl))%nat then fst tl else fst tr.

(* an operand padded to the type of a well-formed other one *)
Lemma fill_other_length tl tr : wf_te tr ->
  length (snd (fill (fst tr) tl)) = Nat.max (length (snd tl)) (length (snd tr)).
Proof. intros H. rewrite fill_length. now rewrite H. Qed.

Lemma fill_other_type tl tr : wf_te tr -> fst (fill (fst tr) tl) = wider tl tr.
Proof.
  intros H. rewrite fill_type, <- H. unfold wider.
  destruct (Nat.leb_spec (length (snd tr)) (length (snd tl))), (Nat.ltb_spec (length (snd tl)) (length (snd tr)));
    (reflexivity || lia).
Qed.

(* on well-formed operands the three-way test of fill_pair (shared by add and bitwise_generic) is
   "fill each operand with the other's type": this is why the binary theorems ask wf_te of both *)
Lemma fill_pair_wf tl tr : wf_te tl -> wf_te tr ->
  fill_pair tl tr = (fill (fst tr) tl, fill (fst tl) tr).
Proof.
  unfold wf_te, fill_pair. intros Hl Hr.
  destruct (Nat.ltb_spec (length (snd tr)) (length (snd tl))) as [H|H];
    [|destruct (Nat.ltb_spec (length (snd tl)) (length (snd tr))) as [H'|H']].
  - now rewrite (fill_id (fst tr) tl) by lia.
  - now rewrite (fill_id (fst tl) tr) by lia.
  - now rewrite !fill_id by lia.
Qed.

Lemma ripple_cons c a b ps :
  ripple c ((a, b) :: ps) = snd (full_adder c a b) :: ripple (fst (full_adder c a b)) ps.
Proof. reflexivity. Qed.

Lemma ripple_length ps : forall c, length (ripple c ps) = length ps.
Proof.
  induction ps as [|[a b] ps IH]; intros c; [reflexivity|].
  rewrite ripple_cons. cbn [length]. now rewrite IH.
Qed.

Theorem ripple_spec rho ps : forall c,
  bv rho (ripple c ps)
  = (N.b2n (beval rho c) + bv rho (map fst ps) + bv rho (map snd ps)) mod p2 (length ps).
Proof.
  induction ps as [|[a b] ps IH]; intros c.
  - cbn [ripple map length]. symmetry. apply N.mod_1_r.
  - rewrite ripple_cons. cbn [map fst snd length]. rewrite !bv_cons, IH, p2_S.
    pose proof (full_adder_spec rho c a b) as H.
    set (s := beval rho (snd (full_adder c a b))) in *.
    set (c' := beval rho (fst (full_adder c a b))) in *.
    rewrite add_double_mod by (try apply b2n_lt2; apply p2_pos). f_equal. lia.
Qed.

(* QintImp.add: well-formed operands of any two types *)
Theorem qint_add_spec cls tl tr :
  is_qtype (fst tl) = true -> is_qtype (fst tr) = true -> wf_te tl -> wf_te tr ->
  let w := Nat.max (length (snd tl)) (length (snd tr)) in
  has_val (qint_add cls tl tr) (add_type cls tl tr) w
          (fun rho => (bv rho (snd tl) + bv rho (snd tr)) mod p2 w).
Proof.
  intros Ql Qr Hl Hr w. unfold qint_add, guard2. rewrite Ql, Qr, (fill_pair_wf tl tr Hl Hr). cbn [andb].
  pose proof (fill_other_length tl tr Hr) as La. pose proof (fill_other_length tr tl Hl) as Lb.
  rewrite Nat.max_comm in Lb. fold w in La, Lb.
  apply has_val_some; cbn [fst snd].
  - unfold add_type. now rewrite fill_other_type.
  - rewrite ripple_length, combine_length. lia.
  - intros rho. rewrite ripple_spec, combine_length, map_fst_combine, map_snd_combine.
    rewrite !firstn_all2 by now rewrite La, Lb. now rewrite La, Lb, Nat.min_id, !fill_bv.
Qed.

Lemma add_type_left cls a b : wf_te a ->
  (length (snd b) <= length (snd a))%nat -> (bit_size cls <= length (snd a))%nat ->
  add_type cls a b = fst a.
Proof.
  unfold wf_te, add_type, wider. intros W Hb Hc.
  destruct (Nat.ltb_spec (length (snd a)) (length (snd b))); [lia|].
  destruct (Nat.ltb_spec (bit_size (fst a)) (bit_size cls)); [lia|reflexivity].
Qed.

Section Bitwise.
  Variables (op : bexp -> bexp -> bexp) (f : bool -> bool -> bool) (F : N -> N -> N).
  Hypothesis Hop : forall rho a b, beval rho (op a b) = f (beval rho a) (beval rho b).
  Hypothesis F_spec : forall x y n, N.testbit (F x y) n = f (N.testbit x n) (N.testbit y n).
  Hypothesis f_ff : f false false = false.

  Theorem qint_bitwise_spec tl tr :
    is_qtype (fst tl) = true -> is_qtype (fst tr) = true -> wf_te tl -> wf_te tr ->
    has_val (qint_bitwise op tl tr) (bitwise_type tl tr)
            (Nat.max (length (snd tl)) (length (snd tr)))
            (fun rho => F (bv rho (snd tl)) (bv rho (snd tr))).
  Proof.
    intros Ql Qr Hl Hr. unfold qint_bitwise, guard2. rewrite Ql, Qr, (fill_pair_wf tl tr Hl Hr). cbn [andb].
    pose proof (fill_other_length tl tr Hr) as La. pose proof (fill_other_length tr tl Hl) as Lb.
    apply has_val_some; cbn [fst snd].
    - exact (fill_other_type tr tl Hl).
    - rewrite map_length, combine_length. lia.
    - intros rho. rewrite <- (fill_bv rho (fst tr) tl), <- (fill_bv rho (fst tl) tr). unfold bv.
      rewrite <- (bits_val_zipop f F F_spec _ _ f_ff) by (rewrite !map_length; lia).
      rewrite combine_map, !map_map. apply f_equal, map_ext. intros [x y]. apply Hop.
  Qed.
End Bitwise.

(* bitwise_not: the complement at the operand's length *)
Lemma bv_not_add rho l : bv rho (map BNot l) + bv rho l + 1 = p2 (length l).
Proof.
  induction l as [|x l IH]; cbn [map length].
  - reflexivity.
  - rewrite !bv_cons, p2_S, beval_not. destruct (beval rho x); cbn [negb N.b2n]; lia.
Qed.

Lemma bv_not rho l : bv rho (map BNot l) = p2 (length l) - 1 - bv rho l.
Proof. pose proof (bv_not_add rho l). lia. Qed.

Lemma bv_not_lnot rho l : bv rho (map BNot l) = N.lnot (bv rho l) (N.of_nat (length l)).
Proof.
  unfold N.lnot. induction l as [|x l IH]; cbn [map length].
  - reflexivity.
  - rewrite !bv_cons, Nat2N.inj_succ, ones_succ, IH, beval_not.
    change 1 with (N.b2n true). rewrite (bitop_cons xorb N.lxor N.lxor_spec). now rewrite xorb_true_r.
Qed.

Theorem bitwise_not_spec rho v :
  fst (bitwise_not v) = fst v /\ length (snd (bitwise_not v)) = length (snd v)
  /\ bv rho (snd (bitwise_not v)) = p2 (length (snd v)) - 1 - bv rho (snd v)
  /\ bv rho (snd (bitwise_not v)) = N.lnot (bv rho (snd v)) (N.of_nat (length (snd v))).
Proof.
  unfold bitwise_not. cbn [fst snd]. rewrite map_length. repeat split; [apply bv_not|apply bv_not_lnot].
Qed.

Lemma has_val_not x t w f : has_val x t w f ->
  has_val (obind x (fun su => Some (bitwise_not su))) t w (fun rho => p2 w - 1 - f rho).
Proof.
  intros (r & -> & T & L & V). apply has_val_some; cbn [bitwise_not fst snd].
  - exact T.
  - now rewrite map_length.
  - intros rho. now rewrite bv_not, L, V.
Qed.

Definition sub_type (cls : ty) (tl tr : texp) : ty :=
  if (bit_size cls <=? Nat.max (length (snd tl)) (length (snd tr)))%nat then wider tl tr else cls.

(* QintImp.sub looked up on any class cls; w = the widest of the operands and cls.
   ~(~A + B) with A the left operand padded to w bits and B the right operand *)
Theorem qint_sub_spec cls tl tr :
  is_qtype cls = true -> is_qtype (fst tl) = true -> is_qtype (fst tr) = true ->
  wf_te tl -> wf_te tr ->
  let w := Nat.max (Nat.max (length (snd tl)) (length (snd tr))) (bit_size cls) in
  has_val (qint_sub cls tl tr) (sub_type cls tl tr) w
          (fun rho => (bv rho (snd tl) + p2 w - bv rho (snd tr)) mod p2 w).
Proof.
  intros Qc Ql Qr Hl Hr w. unfold qint_sub, guard2. rewrite Ql, Qr. cbn [andb].
  replace (if (length (snd tl) <? length (snd tr))%nat then fill (fst tr) tl else tl)
    with (fill (fst tr) tl)
    by (destruct (Nat.ltb_spec (length (snd tl)) (length (snd tr))); [reflexivity|apply fill_id; rewrite <- Hr; lia]).
  set (A := fill cls (fill (fst tr) tl)). set (B := fill cls tr). set (A' := bitwise_not A).
  assert (LA : length (snd A) = w) by (unfold A; now rewrite fill_length, fill_other_length).
  assert (LA' : length (snd A') = w) by (unfold A', bitwise_not; cbn [snd]; now rewrite map_length).
  assert (LB : (length (snd B) <= w)%nat) by (unfold B; rewrite fill_length; lia).
  assert (WA' : wf_te A') by (unfold wf_te; rewrite LA', <- LA; now apply fill_wf, fill_wf).
  eapply has_val_ext; [apply has_val_not, (qint_add_spec cls A' B)| | |]; rewrite ?LA', ?(Nat.max_l w _ LB).
  - change (is_qtype (fst A) = true). now apply fill_qtype, fill_qtype.
  - now apply fill_qtype.
  - exact WA'.
  - now apply fill_wf.
  - rewrite add_type_left; [|exact WA'|now rewrite LA'|rewrite LA'; apply Nat.le_max_r].
    change (fst A = sub_type cls tl tr). unfold A. now rewrite fill_type, fill_other_length, fill_other_type.
  - reflexivity.
  - intros rho. unfold A', bitwise_not. cbn [snd]. rewrite bv_not, LA. unfold A, B. rewrite !fill_bv.
    apply sub_arith; (eapply N.lt_le_trans; [apply bv_lt|apply p2_le; unfold w; lia]).
Qed.

(* dispatched as translate_expression does (cls = the left operand's type):
   the result has the wider operand's type *)
Corollary qint_sub_dispatch tl tr :
  is_qtype (fst tl) = true -> is_qtype (fst tr) = true -> wf_te tl -> wf_te tr ->
  let w := Nat.max (length (snd tl)) (length (snd tr)) in
  has_val (qint_sub (fst tl) tl tr) (wider tl tr) w
          (fun rho => (bv rho (snd tl) + p2 w - bv rho (snd tr)) mod p2 w).
Proof.
  intros Ql Qr Hl Hr w. pose proof (qint_sub_spec (fst tl) tl tr Ql Ql Qr Hl Hr) as H.
  cbn zeta in H. unfold sub_type in H. rewrite <- Hl in H.
  rewrite (Nat.max_l _ (length (snd tl))), (proj2 (Nat.leb_le _ _) (Nat.le_max_l _ _)) in H by lia.
  exact H.
Qed.

Lemma beval_const rho b : beval rho (BConst b) = b.
Proof. now destruct b. Qed.

Lemma map_beval_const rho l : map (beval rho) (map BConst l) = l.
Proof. induction l as [|b l IH]; cbn [map]; [reflexivity|]. rewrite IH. f_equal. apply beval_const. Qed.

Lemma is_const_map_const l : forallb is_const_bit (map BConst l) = true.
Proof. induction l as [|b l IH]; cbn [map forallb is_const_bit]; [reflexivity|exact IH]. Qed.

Lemma is_const_bv rho l : forallb is_const_bit l = true -> bv rho l = const_bits_val l.
Proof.
  unfold bv, const_bits_val. induction l as [|x l IH]; cbn [forallb map bits_val]; [reflexivity|].
  intros H. apply andb_true_iff in H as [Hx Hl]. rewrite (IH Hl).
  destruct x; try discriminate. cbn [truthy]. now rewrite beval_const.
Qed.

(* QintImp.const: relates the expression-level constant to P_Codec.qint_const_spec *)
Theorem qint_const_e_spec w v : (0 < w)%nat ->
  fst (qint_const_e w v) = TQint w /\ wf_te (qint_const_e w v) /\ is_const (qint_const_e w v) = true
  /\ forall rho, map (beval rho) (snd (qint_const_e w v)) = nbits w (v mod p2 w)
                 /\ bv rho (snd (qint_const_e w v)) = v mod p2 w.
Proof.
  intros Hw. unfold qint_const_e, wf_te, is_const. cbn [fst snd bit_size ty_size].
  rewrite map_length, (qint_const_spec w v Hw), nbits_length. repeat split.
  - apply is_const_map_const.
  - apply map_beval_const.
  - unfold bv. rewrite map_beval_const, bits_val_nbits. apply N.mod_mod. apply p2_nz.
Qed.

(* QintImp.mod computes x & (y - 1) *)
Theorem qint_mod_spec tl tr wr :
  fst tr = TQint wr -> (0 < wr)%nat -> is_qtype (fst tl) = true -> wf_te tl -> wf_te tr ->
  has_val (qint_mod tl tr)
          (if (wr <? length (snd tl))%nat then fst tl else TQint wr)
          (Nat.max (length (snd tl)) wr)
          (fun rho => N.land (bv rho (snd tl)) ((bv rho (snd tr) + p2 wr - 1) mod p2 wr)).
Proof.
  intros Tr Hw Ql Wl Wr. unfold qint_mod, guard2. rewrite Ql, Tr. cbn [is_qtype andb].
  destruct (qint_const_e_spec wr 1 Hw) as (Tc & Wc & _ & Vc).
  assert (Lr : length (snd tr) = wr) by (rewrite Wr, Tr; reflexivity).
  assert (Lc : length (snd (qint_const_e wr 1)) = wr) by (rewrite Wc, Tc; reflexivity).
  eapply has_val_bind;
    [apply (qint_sub_spec (TQint wr) tr (qint_const_e wr 1)); try assumption; [reflexivity|now rewrite Tr|now rewrite Tc]|].
  unfold sub_type, wider. rewrite Lr, Lc. cbn [bit_size ty_size].
  rewrite !Nat.max_id, Nat.leb_refl, Nat.ltb_irrefl, Tr.
  intros tv Ttv Ltv Vtv.
  assert (Qtv : is_qtype (fst tv) = true) by now rewrite Ttv.
  assert (Wtv : wf_te tv) by (unfold wf_te; now rewrite Ttv, Ltv).
  eapply has_val_ext; [exact (qint_bitwise_spec _ andb N.land beval_and2 N.land_spec eq_refl tl tv Ql Qtv Wl Wtv)| | |].
  - unfold bitwise_type. now rewrite Ltv, Ttv.
  - now rewrite Ltv.
  - intros rho. cbv beta. rewrite Vtv, (proj2 (Vc rho)), (N.mod_small 1); [reflexivity|].
    apply (N.lt_le_trans _ (p2 1)); [reflexivity|apply p2_le; lia].
Qed.

(* the documented case: the right operand is a power of two (under the assignment) *)
Corollary qint_mod_pow2 tl tr wr :
  fst tr = TQint wr -> (0 < wr)%nat -> is_qtype (fst tl) = true -> wf_te tl -> wf_te tr ->
  exists r, qint_mod tl tr = Some r /\
    forall rho k, bv rho (snd tr) = p2 k -> bv rho (snd r) = bv rho (snd tl) mod p2 k.
Proof.
  intros Tr Hw Ql Wl Wr. destruct (qint_mod_spec tl tr wr Tr Hw Ql Wl Wr) as (r & Hr & _ & _ & Vr).
  exists r. split; [exact Hr|]. intros rho k Hk. rewrite Vr, Hk.
  pose proof (bv_lt rho (snd tr)) as Hb. rewrite Wr, Tr, Hk in Hb. cbn [bit_size ty_size] in Hb.
  pose proof (p2_pos k).
  replace (p2 k + p2 wr - 1) with ((p2 k - 1) + 1 * p2 wr) by lia.
  rewrite N.mod_add by apply p2_nz. rewrite N.mod_small by lia.
  replace (p2 k - 1) with (N.ones (N.of_nat k)) by (rewrite N.ones_equiv; unfold p2; lia).
  apply N.land_ones.
Qed.

Lemma bv_firstn_S rho l j : (j < length l)%nat ->
  bv rho (firstn (S j) l) = bv rho (firstn j l) + p2 j * N.b2n (beval rho (nth j l bfalse)).
Proof.
  intros H. rewrite (firstn_S_nth bfalse) by exact H. rewrite bv_app, bv_cons, firstn_length_le by lia.
  change (bv rho []) with 0. lia.
Qed.

Lemma upd_length {A} (d : A) l k v : (k < length l)%nat -> length (upd d l k v) = length l.
Proof.
  revert l; induction k as [|k IH]; intros [|x l] H; cbn [length] in H; try lia; cbn [upd length].
  - reflexivity.
  - rewrite IH by lia. reflexivity.
Qed.

Lemma bv_upd rho l k e : (k < length l)%nat ->
  bv rho (upd bfalse l k e) + p2 k * N.b2n (beval rho (nth k l bfalse))
  = bv rho l + p2 k * N.b2n (beval rho e).
Proof.
  revert l; induction k as [|k IH]; intros [|x l] H; cbn [length] in H; try lia; cbn [upd nth]; rewrite !bv_cons.
  - change (p2 0) with 1. lia.
  - specialize (IH l ltac:(lia)). rewrite p2_S. lia.
Qed.

Section ArrayMul.
  Variables (rho : nat -> bool) (l r : list bexp) (n m : nat).
  Hypothesis Hr : (m <= length r)%nat.
  (* bit i of the left operand; the j low bits of the right one *)
  Let a (i : nat) : N := N.b2n (beval rho (nth i l bfalse)).
  Let R (j : nat) : N := bv rho (firstn j r).

  (* the inner loop of row i after j steps.  For i < n and j < m it always takes the full-adder
     branch of mul_inner (i + j < n + m - 1); the other branch is unreachable from array_mul *)
  Lemma mul_inner_inv i prod0 : (i < n)%nat -> length prod0 = (n + m)%nat ->
    forall j, (j <= m)%nat ->
    let st := fold_left (mul_inner l r n m i) (seq 0 j) (bfalse, prod0) in
    length (snd st) = (n + m)%nat
    /\ (forall q, (i + j <= q)%nat -> nth q (snd st) bfalse = nth q prod0 bfalse)
    /\ bv rho (snd st) + p2 (i + j) * N.b2n (beval rho (fst st)) = bv rho prod0 + p2 i * a i * R j.
  Proof.
    intros Hi Hlen. unfold a, R. induction j as [|j IH]; intros Hj.
    - cbn [seq fold_left fst snd firstn]. repeat split; [exact Hlen|].
      change (beval rho bfalse) with false. change (bv rho []) with 0. cbn [N.b2n]. lia.
    - rewrite seq_S, fold_left_app. cbn [Nat.add fold_left].
      assert (Hlt : (i + j < n + m - 1)%nat) by lia. assert (Hjr : (j < length r)%nat) by lia.
      destruct (IH ltac:(lia)) as (L & U & V). clear IH.
      destruct (fold_left (mul_inner l r n m i) (seq 0 j) (bfalse, prod0)) as [c p]. cbn [fst snd] in *.
      assert (Hp : (i + j < length p)%nat) by (clear - L Hlt; lia).
      unfold mul_inner. rewrite (proj2 (Nat.ltb_lt (i + j) (n + m - 1))) by exact Hlt.
      set (pp := BAnd [nth i l bfalse; nth j r bfalse]).
      pose proof (full_adder_spec rho c pp (nth (i + j) p bfalse)) as HF.
      destruct (full_adder c pp (nth (i + j) p bfalse)) as [c' s]. cbn [fst snd] in *.
      split; [|split].
      + rewrite upd_length by exact Hp. exact L.
      + intros q Hq. rewrite nth_upd. destruct (Nat.eqb_spec q (i + j)) as [E|E]; [clear - Hq E; lia|].
        apply U. clear - Hq. lia.
      + pose proof (bv_upd rho p (i + j) s Hp) as HU.
        rewrite bv_firstn_S by exact Hjr.
        assert (Hpp : N.b2n (beval rho pp) = N.b2n (beval rho (nth i l bfalse)) * N.b2n (beval rho (nth j r bfalse))).
        { unfold pp. rewrite beval_and2.
          destruct (beval rho (nth i l bfalse)), (beval rho (nth j r bfalse)); reflexivity. }
        (* the full adder's equation, scaled to position i + j *)
        rewrite Hpp in HF. pose proof (f_equal (N.mul (p2 (i + j))) HF) as HK. clear - V HU HK.
        rewrite Nat.add_succ_r, p2_S. rewrite p2_add in *. lia.
  Qed.

  (* a row adds bit i of the left operand times the right operand, at position i *)
  Lemma mul_row_inv prod i : (i < n)%nat -> length prod = (n + m)%nat ->
    (forall q, (i + m <= q)%nat -> beval rho (nth q prod bfalse) = false) ->
    let prod' := mul_row l r n m prod i in
    length prod' = (n + m)%nat
    /\ (forall q, (S i + m <= q)%nat -> beval rho (nth q prod' bfalse) = false)
    /\ bv rho prod' = bv rho prod + p2 i * a i * R m.
  Proof.
    intros Hi Hlen Hz. unfold mul_row.
    destruct (mul_inner_inv i prod Hi Hlen m (le_n m)) as (L & U & V).
    destruct (fold_left (mul_inner l r n m i) (seq 0 m) (bfalse, prod)) as [c p]. cbn [fst snd] in *.
    rewrite (proj2 (Nat.ltb_lt (i + m) (n + m))) by lia.
    split; [|split].
    - rewrite upd_length; lia.
    - intros q Hq. rewrite nth_upd. destruct (Nat.eqb_spec q (i + m)) as [E|E]; [lia|].
      rewrite U by lia. apply Hz. lia.
    - pose proof (bv_upd rho p (i + m) c ltac:(lia)) as HU.
      rewrite (U (i + m)%nat) in HU by lia. rewrite (Hz (i + m)%nat) in HU by lia.
      cbn [N.b2n] in HU. lia.
  Qed.

  (* after i rows the accumulator holds the i low bits of the left operand times the right one *)
  Lemma array_mul_inv : (n <= length l)%nat -> forall i, (i <= n)%nat ->
    let prod := fold_left (mul_row l r n m) (seq 0 i) (repeat bfalse (n + m)) in
    length prod = (n + m)%nat
    /\ (forall q, (i + m <= q)%nat -> beval rho (nth q prod bfalse) = false)
    /\ bv rho prod = bv rho (firstn i l) * R m.
  Proof.
    intros Hl. induction i as [|i IH]; intros Hi.
    - cbn [seq fold_left firstn]. split; [apply repeat_length|split].
      + intros q _. now rewrite nth_repeat.
      + apply bv_false.
    - rewrite seq_S, fold_left_app. cbn [Nat.add fold_left].
      destruct (IH ltac:(lia)) as (L & Z & V). clear IH.
      set (prod := fold_left (mul_row l r n m) (seq 0 i) (repeat bfalse (n + m))) in *.
      destruct (mul_row_inv prod i ltac:(lia) L Z) as (L' & Z' & V').
      split; [exact L'|split; [exact Z'|]].
      rewrite V', V, bv_firstn_S by lia. unfold a. lia.
  Qed.
End ArrayMul.

(* the array multiplier on ANY two operand lengths n and m *)
Theorem array_mul_spec rho l r n m : n = length l -> m = length r ->
  length (array_mul l r n m) = (n + m)%nat /\ bv rho (array_mul l r n m) = bv rho l * bv rho r.
Proof.
  intros -> ->.
  destruct (array_mul_inv rho l r (length l) (length r) (le_n _) (le_n _) (length l) (le_n _)) as (L & _ & V).
  split; [exact L|]. now rewrite !firstn_all in V.
Qed.

Lemma fill_qint_val wr v f : fst v = TQint wr -> (length (snd v) <= wr)%nat ->
  (forall rho, bv rho (snd v) = f rho) -> has_val (Some (fill (TQint wr) v)) (TQint wr) wr f.
Proof.
  intros T L V. apply has_val_some.
  - rewrite fill_type, T. now destruct (_ <=? _)%nat.
  - rewrite fill_length. cbn [bit_size ty_size]. lia.
  - intros rho. now rewrite fill_bv.
Qed.

(* the constant 0, in the form its two callers meet after c := 0: x is whatever is multiplied by it *)
Lemma mec_zero_val wr x : has_val (Some (mec_zero wr)) (TQint wr) wr (fun rho => (x rho * 0) mod p2 wr).
Proof.
  apply fill_qint_val; [reflexivity|apply Nat.le_0_l|].
  intros rho. now rewrite N.mul_0_r, N.mod_0_l by apply p2_nz.
Qed.

(* one level of the recursion: const = 2^n + r with n the top bit *)
Lemma mec_step_spec rec t_num c r wr :
  c <> 0 -> r = c - 2 ^ N.log2 c ->
  (0 < r -> has_val (rec r) (TQint wr) wr (fun rho => (bv rho t_num * r) mod p2 wr)) ->
  has_val (mec_step rec t_num c r wr) (TQint wr) wr (fun rho => (bv rho t_num * c) mod p2 wr).
Proof.
  intros Hc Hr Hrec. unfold mec_step.
  destruct (shift_left_total (TQint wr, t_num) (top_bit c) eq_refl) as [sh Hsh]. rewrite Hsh. cbn [obind].
  assert (Hsp := fun rho => shift_left_spec rho _ _ _ Hsh). cbn [fst snd bit_size ty_size] in Hsp.
  (* x * 2^n, back at wr bits *)
  destruct (fill_qint_val wr sh (fun rho => (bv rho t_num * 2 ^ N.log2 c) mod p2 wr))
    as (a & [= <-] & Ta & La & Va).
  { apply (Hsp rho0). } { rewrite (proj1 (proj2 (Hsp rho0))). apply Nat.le_min_r. }
  { intros rho. rewrite (proj2 (proj2 (Hsp rho))). unfold p2 at 1, top_bit. now rewrite N2Nat.id. }
  pose proof (N.log2_spec c ltac:(lia)) as [Hlo _].
  destruct (N.ltb_spec 0 r) as [Hpos|Hzero].
  - eapply has_val_bind; [exact (Hrec Hpos)|]. intros rest Trest Lrest Vrest.
    destruct (fill_qint_val wr rest _ Trest (Nat.eq_le_incl _ _ Lrest) Vrest) as (b & [= <-] & Tb & Lb & Vb).
    set (a := fill (TQint wr) sh) in *. set (b := fill (TQint wr) rest) in *.
    eapply has_val_ext; [apply (qint_add_spec (TQint wr) (TQint wr, snd a) b)| | |]; cbn [fst snd];
      rewrite ?La, ?Lb, ?Nat.max_id; try reflexivity.
    + now rewrite Tb.
    + exact La.
    + unfold wf_te. now rewrite Tb, Lb.
    + apply add_type_left; [exact La|cbn [snd bit_size ty_size]; now rewrite La, ?Lb..].
    + intros rho. rewrite Va, Vb, <- N.add_mod by apply p2_nz. f_equal. subst r. nia.
  - apply has_val_some; cbn [fst snd]; [reflexivity|exact La|].
    intros rho. rewrite Va. f_equal. f_equal. lia.
Qed.

Lemma remainder_size c : c <> 0 -> (N.to_nat (N.size (c - 2 ^ N.log2 c)) < N.to_nat (N.size c))%nat.
Proof.
  intros Hc. pose proof (N.log2_spec c ltac:(lia)) as [Hlo Hhi]. rewrite N.pow_succ_r' in Hhi.
  set (r := c - 2 ^ N.log2 c). assert (Hr : r < 2 ^ N.log2 c) by (unfold r; lia).
  rewrite (N.size_log2 c Hc). destruct (N.eq_dec r 0) as [E|E].
  - rewrite E. cbn. lia.
  - rewrite (N.size_log2 r E). apply N.log2_lt_pow2 in Hr; lia.
Qed.

(* mul_even_const computes x * c for EVERY c (even or not), modulo the result width *)
Theorem mul_even_const_spec fuel : forall t_num c wr, (N.to_nat (N.size c) < fuel)%nat ->
  has_val (mul_even_const fuel t_num c wr) (TQint wr) wr (fun rho => (bv rho t_num * c) mod p2 wr).
Proof.
  induction fuel as [|fuel IH]; intros t_num c wr Hf; [lia|].
  cbn [mul_even_const]. destruct (N.eqb_spec c 0) as [->|Hc].
  - apply mec_zero_val.
  - apply mec_step_spec; [exact Hc|reflexivity|]. intros _. apply IH.
    pose proof (remainder_size c Hc). lia.
Qed.

Lemma py_qint_obj_sub_small w raw b : raw < p2 w -> b <= raw -> py_qint_obj_sub w raw b = raw - b.
Proof.
  intros Hr Hb. unfold py_qint_obj_sub. fold (p2 w). rewrite (N.mod_small raw) by exact Hr.
  rewrite <- N2Z.inj_sub by exact Hb. rewrite <- N2Z.inj_mod, N2Z.id. apply N.mod_small. lia.
Qed.

(* the call made by mul: const is the QintImp object decoded from the constant operand *)
Theorem mul_even_const_obj_spec wc t_num raw wr : raw < p2 wc ->
  has_val (mul_even_const_obj wc t_num raw wr) (TQint wr) wr (fun rho => (bv rho t_num * raw) mod p2 wr).
Proof.
  intros Hraw. unfold mul_even_const_obj. destruct (N.eqb_spec raw 0) as [->|Hc].
  - apply mec_zero_val.
  - pose proof (N.log2_spec raw ltac:(lia)) as [Hlo _].
    apply mec_step_spec; [exact Hc|now apply py_qint_obj_sub_small|].
    intros _. apply mul_even_const_spec.
    rewrite py_qint_obj_sub_small by assumption.
    pose proof (remainder_size raw Hc). lia.
Qed.

(* a Qint-typed operand with exactly its BIT_SIZE bits *)
Definition good (v : texp) (k : nat) : Prop := fst v = TQint k /\ length (snd v) = k.
Lemma good_wf v k : good v k -> wf_te v.
Proof. intros [T L]. unfold wf_te. now rewrite T, L. Qed.

Lemma fill_good v k x : good v k -> good (fill (TQint x) v) (Nat.max k x).
Proof.
  intros [T L]. unfold good. rewrite fill_type, fill_length, L. cbn [bit_size ty_size].
  destruct (Nat.leb_spec x k) as [H|H].
  - rewrite T. split; [f_equal|]; lia.
  - split; [f_equal|]; lia.
Qed.

(* the result types of add, sub and the bitwise methods on two such operands *)
Lemma wider_good {tl tr wl wr} : good tl wl -> good tr wr -> wider tl tr = TQint (Nat.max wl wr).
Proof.
  intros [T1 L1] [T2 L2]. unfold wider. rewrite L1, L2, T1, T2.
  destruct (Nat.ltb_spec wl wr); f_equal; lia.
Qed.

Lemma add_type_good {tl tr wl wr} : good tl wl -> good tr wr -> add_type (TQint wl) tl tr = TQint (Nat.max wl wr).
Proof.
  intros G1 G2. unfold add_type. rewrite (wider_good G1 G2). cbn [bit_size ty_size].
  destruct (Nat.ltb_spec (Nat.max wl wr) wl); [lia|reflexivity].
Qed.

Lemma bitwise_type_good {tl tr wl wr} : good tl wl -> good tr wr -> bitwise_type tl tr = TQint (Nat.max wl wr).
Proof.
  intros [T1 L1] [T2 L2]. unfold bitwise_type. rewrite L1, L2, T1, T2.
  destruct (Nat.ltb_spec wr wl); f_equal; lia.
Qed.

(* a constant operand is padded to the other's width x: it is then between its own width and the common one *)
Lemma fill_if_const (c : bool) v k x : good v k ->
  let v0 := if c then fill (TQint x) v else v in
  exists k0, good v0 k0 /\ (k <= k0 <= Nat.max k x)%nat /\ forall rho, bv rho (snd v0) = bv rho (snd v).
Proof.
  intros G. destruct c.
  - exists (Nat.max k x). split; [now apply fill_good|split; [lia|intros rho; apply fill_bv]].
  - exists k. split; [exact G|split; [lia|reflexivity]].
Qed.

(* after the preparation both operands have max(wl, wr) bits and mean what they meant *)
Lemma mul_operands_spec tl_ tr_ wl wr : good tl_ wl -> good tr_ wr ->
  exists tl tr, mul_operands tl_ tr_ = (tl, tr, Nat.max wl wr, Nat.max wl wr)
    /\ good tl (Nat.max wl wr) /\ good tr (Nat.max wl wr)
    /\ (forall rho, bv rho (snd tl) = bv rho (snd tl_)) /\ (forall rho, bv rho (snd tr) = bv rho (snd tr_)).
Proof.
  intros G1 G2. unfold mul_operands. rewrite (proj1 G1), (proj1 G2).
  destruct (fill_if_const (is_const tl_) tl_ wl wr G1) as (k1 & Gk1 & D1 & S1).
  destruct (fill_if_const (is_const tr_) tr_ wr wl G2) as (k2 & Gk2 & D2 & S2).
  set (tl0 := if is_const tl_ then fill (TQint wr) tl_ else tl_) in *.
  set (tr0 := if is_const tr_ then fill (TQint wl) tr_ else tr_) in *.
  rewrite (proj2 Gk1), (proj2 Gk2).
  (* the shorter one is padded to the other's original width *)
  destruct (Nat.eqb_spec k1 k2) as [E|E]; [|destruct (Nat.ltb_spec k2 k1) as [F|F]].
  - exists tl0, tr0. replace (Nat.max wl wr) with k1 by lia. subst k2. auto 6.
  - exists tl0, (fill (TQint wl) tr0). replace (Nat.max wl wr) with k1 by lia.
    split; [reflexivity|]. split; [exact Gk1|]. split; [|split; [exact S1|intros rho; now rewrite fill_bv]].
    replace k1 with (Nat.max k2 wl) by lia. now apply fill_good.
  - exists (fill (TQint wr) tl0), tr0. replace (Nat.max wl wr) with k2 by lia.
    split; [reflexivity|]. split; [|split; [exact Gk2|split; [intros rho; now rewrite fill_bv|exact S2]]].
    replace k2 with (Nat.max k1 wr) by lia. now apply fill_good.
Qed.

Lemma crop_fill_val (s : nat) (v : texp) (f : (nat -> bool) -> N) :
  fst v = TQint s -> (forall rho, bv rho (snd v) = f rho) ->
  has_val (Some (crop (TQint s) (fill (TQint s) v))) (TQint s) s (fun rho => f rho mod p2 s).
Proof.
  intros T V. apply has_val_some.
  - rewrite crop_type, fill_type, T. destruct (_ <=? _)%nat; [destruct (_ <=? _)%nat|]; reflexivity.
  - rewrite crop_length, fill_length. cbn [bit_size ty_size]. lia.
  - intros rho. now rewrite crop_bv, fill_bv, V.
Qed.

(* QintImp.mul on two Qint operands of ANY widths wl, wr, symbolic or constant:
   the product modulo the width of the result type *)
Theorem qint_mul_spec tl_ tr_ wl wr :
  good tl_ wl -> good tr_ wr -> (0 < wl)%nat -> (0 < wr)%nat ->
  let s := mul_sizing (Nat.max wl wr + Nat.max wl wr) in
  has_val (qint_mul tl_ tr_) (TQint s) s
          (fun rho => (bv rho (snd tl_) * bv rho (snd tr_)) mod p2 s).
Proof.
  intros G1 G2 Hwl Hwr s. unfold qint_mul, guard2. rewrite (proj1 G1), (proj1 G2). cbn [is_qtype andb].
  destruct (mul_operands_spec tl_ tr_ wl wr G1 G2) as (tl & tr & E & [Tl Ll] & [Tr Lr] & Vl & Vr).
  rewrite E. set (w := Nat.max wl wr) in *. fold s.
  rewrite Ll, Lr, Nat.leb_refl. cbn [andb].
  set (t := TQint s). set (F := fun rho => (bv rho (snd tl_) * bv rho (snd tr_)) mod p2 s).
  assert (Harr : has_val (Some (crop t (fill t (t, array_mul (snd tl) (snd tr) w w)))) t s F).
  { apply (crop_fill_val s (_, _) (fun rho => bv rho (snd tl_) * bv rho (snd tr_))); [reflexivity|].
    intros rho. cbn [snd]. rewrite <- Vl, <- Vr. now apply array_mul_spec. }
  (* the shift-and-add shortcut on (number, constant) *)
  assert (Hshort : forall tn tc : texp, length (snd tc) = w -> is_const tc = true ->
            (forall rho, bv rho (snd tn) * bv rho (snd tc) = bv rho (snd tl_) * bv rho (snd tr_)) ->
            has_val (obind (mul_even_const_obj w (snd tn) (const_bits_val (snd tc)) s)
                           (fun res => Some (crop t (fill t res)))) t s F).
  { intros tn tc Lc Cc Hprod.
    eapply has_val_bind; [apply (mul_even_const_obj_spec w (snd tn) (const_bits_val (snd tc)) s)|].
    - rewrite <- (is_const_bv rho0) by exact Cc. rewrite <- Lc. apply bv_lt.
    - intros res Tres _ Vres.
      eapply has_val_ext; [apply (crop_fill_val s res _ Tres Vres)|reflexivity|reflexivity|].
      intros rho. unfold F. rewrite N.mod_mod by apply p2_nz. f_equal.
      rewrite <- (is_const_bv rho (snd tc)) by exact Cc. apply Hprod. }
  assert (Hw : (0 < w)%nat) by (unfold w; lia).
  destruct (is_const tl) eqn:Ctl; [|destruct (is_const tr) eqn:Ctr]; cbn [orb].
  - (* the left operand is a constant: it is the multiplier, whatever the right one is *)
    rewrite Tl. destruct (snd tl) as [|c0 cb] eqn:Es; [cbn [length] in Ll; lia|]. cbv iota. rewrite <- Es in *.
    destruct (N.even (const_bits_val (snd tl))); [|exact Harr].
    apply (Hshort tr tl Ll Ctl). intros rho. rewrite Vl, Vr. apply N.mul_comm.
  - (* only the right operand is constant *)
    rewrite Tr. destruct (snd tr) as [|c0 cb] eqn:Es; [cbn [length] in Lr; lia|]. cbv iota. rewrite <- Es in *.
    destruct (N.even (const_bits_val (snd tr))); [|exact Harr].
    apply (Hshort tl tr Lr Ctr). intros rho. now rewrite Vl, Vr.
  - exact Harr.
Qed.

(* both operands constant and the left one even, so that the left one is the multiplier of
   the shift-and-add shortcut and the right one the number: 12 * 6 = 72 *)
Example qint_mul_both_const_ex :
  exists r, qint_mul (qint_const_e 4 12) (qint_const_e 4 6) = Some r
    /\ fst r = TQint 8 /\ bv (fun _ => false) (snd r) = 72.
Proof. eexists. split; [vm_compute; reflexivity|]. split; vm_compute; reflexivity. Qed.

(* the scaled integer a Qfixed(i, f) bit list denotes: value * 2^f *)
Definition fxv (rho : nat -> bool) (i : nat) (l : list bexp) : N := bv rho (qrepr i l).

Lemma to_qint_repr_eq i f l : to_qint_repr (TQfixed i f, l) = Some (qrepr i l).
Proof. reflexivity. Qed.
Lemma from_qint_repr_eq i f l : from_qint_repr (TQfixed i f, l) = Some (unrepr f l).
Proof. reflexivity. Qed.

Lemma qrepr_length {A} i (l : list A) : length (qrepr i l) = length l.
Proof.
  unfold qrepr. rewrite app_length, rev_length, skipn_length, firstn_length. lia.
Qed.
Lemma unrepr_length {A} f (l : list A) : length (unrepr f l) = length l.
Proof.
  unfold unrepr. rewrite app_length, rev_length, skipn_length, firstn_length. lia.
Qed.

Lemma qrepr_unrepr {A} i f (x : list A) : length x = (i + f)%nat -> qrepr i (unrepr f x) = x.
Proof.
  intros H. unfold qrepr, unrepr.
  assert (Hs : length (skipn f x) = i) by (rewrite skipn_length; lia).
  rewrite (skipn_app_exact _ _ i Hs), (firstn_app_exact _ _ i Hs), rev_involutive.
  apply firstn_skipn.
Qed.

Lemma unrepr_qrepr {A} i f (x : list A) : length x = (i + f)%nat -> unrepr f (qrepr i x) = x.
Proof.
  intros H. unfold qrepr, unrepr.
  assert (Hs : length (rev (skipn i x)) = f) by (rewrite rev_length, skipn_length; lia).
  rewrite (skipn_app_exact _ _ f Hs), (firstn_app_exact _ _ f Hs), rev_involutive.
  apply firstn_skipn.
Qed.

Lemma qrepr_map {A B} (g : A -> B) i l : qrepr i (map g l) = map g (qrepr i l).
Proof. unfold qrepr. now rewrite map_app, map_rev, <- skipn_map, <- firstn_map. Qed.

Lemma fxv_lt rho i l : fxv rho i l < p2 (length l).
Proof. unfold fxv. rewrite <- (qrepr_length i l). apply bv_lt. Qed.

(* fx_val x i f F: the method returns a Qfixed(i, f) value of i + f bits whose scaled integer is F *)
Definition fx_val (x : option texp) (i f : nat) (F : (nat -> bool) -> N) : Prop :=
  exists res, x = Some (TQfixed i f, res) /\ length res = (i + f)%nat /\ forall rho, fxv rho i res = F rho.

Lemma fx_val_some i f res F :
  length res = (i + f)%nat -> (forall rho, fxv rho i res = F rho) -> fx_val (Some (TQfixed i f, res)) i f F.
Proof. intros L V. exists res. auto. Qed.

Lemma fx_val_ext {x i f F F'} : fx_val x i f F -> (forall rho, F rho = F' rho) -> fx_val x i f F'.
Proof. intros (res & H & L & V) E. exists res. repeat split; try assumption. intros rho. now rewrite V. Qed.

Lemma fx_val_bind {x k i f F i' f' F'} : fx_val x i f F ->
  (forall res, length res = (i + f)%nat -> (forall rho, fxv rho i res = F rho) ->
               fx_val (k (TQfixed i f, res)) i' f' F') ->
  fx_val (obind x k) i' f' F'.
Proof. intros (res & -> & L & V) H. now apply H. Qed.

Definition widen_bits (it ft i f : nat) (l : list bexp) : list bexp :=
  (firstn it l ++ repeat bfalse (i - it)) ++ (skipn it l ++ repeat bfalse (f - ft)).

Lemma widen_eq it ft i f l : widen i f (TQfixed it ft, l) = (TQfixed i f, widen_bits it ft i f l).
Proof. reflexivity. Qed.

Lemma widen_bits_id i f l : widen_bits i f i f l = l.
Proof. unfold widen_bits. rewrite !Nat.sub_diag. cbn [repeat]. rewrite !app_nil_r. apply firstn_skipn. Qed.

Lemma widen_bits_length it ft i f l : length l = (it + ft)%nat -> (it <= i)%nat -> (ft <= f)%nat ->
  length (widen_bits it ft i f l) = (i + f)%nat.
Proof.
  intros Hl Hi Hf. unfold widen_bits. rewrite !app_length, !repeat_length, firstn_length, skipn_length. lia.
Qed.

(* the aligned list denotes the same number at the common scale *)
Lemma widen_bits_fxv rho it ft i f l : length l = (it + ft)%nat -> (it <= i)%nat ->
  fxv rho i (widen_bits it ft i f l) = fxv rho it l * p2 (f - ft).
Proof.
  intros Hl Hi. unfold fxv, widen_bits, qrepr.
  assert (HA : length (firstn it l ++ repeat bfalse (i - it)) = i)
    by (rewrite app_length, repeat_length, firstn_length; lia).
  rewrite (skipn_app_exact _ _ i HA), (firstn_app_exact _ _ i HA).
  rewrite rev_app_distr, rev_repeat.
  rewrite <- !app_assoc. rewrite bv_app, bv_false, repeat_length.
  rewrite (app_assoc (rev (skipn it l))). rewrite (bv_app rho (rev (skipn it l) ++ firstn it l)), bv_false.
  rewrite N.mul_0_r, N.add_0_r. apply N.mul_comm.
Qed.

Lemma widen_both i1 f1 i2 f2 l r : length l = (i1 + f1)%nat -> length r = (i2 + f2)%nat ->
  let i := Nat.max i1 i2 in let f := Nat.max f1 f2 in
  let al := widen_bits i1 f1 i f l in let ar := widen_bits i2 f2 i f r in
  length al = (i + f)%nat /\ length ar = (i + f)%nat
  /\ (forall rho, fxv rho i al = fxv rho i1 l * p2 (f - f1))
  /\ (forall rho, fxv rho i ar = fxv rho i2 r * p2 (f - f2)).
Proof.
  intros Hl Hr. repeat split; intros; (apply widen_bits_length || apply widen_bits_fxv);
    auto using Nat.le_max_l, Nat.le_max_r.
Qed.

(* the common type exists: the operands have the same type, or the larger shape is shipped *)
Definition align_ok (i1 f1 i2 f2 : nat) : Prop :=
  (i1 = i2 /\ f1 = f2) \/ is_shipped_qfixed (Nat.max i1 i2) (Nat.max f1 f2) = true.

(* a method applied to operands of two Qfixed types is the method applied to the aligned operands *)
Lemma with_align_eq {A i1 f1 i2 f2 l r} {k : texp -> texp -> option A} : align_ok i1 f1 i2 f2 ->
  with_align (TQfixed i1 f1, l) (TQfixed i2 f2, r) k
  = k (TQfixed (Nat.max i1 i2) (Nat.max f1 f2), widen_bits i1 f1 (Nat.max i1 i2) (Nat.max f1 f2) l)
      (TQfixed (Nat.max i1 i2) (Nat.max f1 f2), widen_bits i2 f2 (Nat.max i1 i2) (Nat.max f1 f2) r).
Proof.
  intros H. unfold with_align, qfixed_align. cbn [fst].
  destruct (Nat.eqb_spec i1 i2) as [Ei|Ei]; [destruct (Nat.eqb_spec f1 f2) as [Ef|Ef]|]; cbn [andb].
  - subst. now rewrite !Nat.max_id, !widen_bits_id.
  - destruct H as [[_ H]|H]; [now elim Ef|]. now rewrite H.
  - destruct H as [[H _]|H]; [now elim Ei|]. now rewrite H.
Qed.

Lemma with_align_same {A} i f l r (k : texp -> texp -> option A) :
  with_align (TQfixed i f, l) (TQfixed i f, r) k = k (TQfixed i f, l) (TQfixed i f, r).
Proof.
  rewrite with_align_eq by (left; split; reflexivity). now rewrite !Nat.max_id, !widen_bits_id.
Qed.

(* every pair of shipped Qfixed types has its common type among the shipped ones
   (checked on Generated.shipped_qfixed, i.e. on the QFIXED_TYPES of this run) *)
Theorem shipped_qfixed_closed :
  forallb (fun a => forallb (fun b => is_shipped_qfixed (Nat.max (fst a) (fst b)) (Nat.max (snd a) (snd b)))
                            shipped_qfixed) shipped_qfixed = true.
Proof. vm_compute. reflexivity. Qed.

(* QfixedImp.add, operands of ANY two Qfixed types with a common type: the sum of
   the two values at the common scale 2^max(f1,f2), modulo the common width.  After the
   alignment the method is QintImp.add on the two representations. *)
Theorem qfixed_add_mixed_spec i1 f1 i2 f2 l r :
  align_ok i1 f1 i2 f2 -> length l = (i1 + f1)%nat -> length r = (i2 + f2)%nat ->
  let i := Nat.max i1 i2 in let f := Nat.max f1 f2 in
  fx_val (qfixed_add (TQfixed i1 f1, l) (TQfixed i2 f2, r)) i f
    (fun rho => (fxv rho i1 l * p2 (f - f1) + fxv rho i2 r * p2 (f - f2)) mod p2 (i + f)).
Proof.
  intros Hok Hl Hr i f. unfold qfixed_add. cbn [fst is_qfixed andb]. rewrite (with_align_eq Hok).
  fold i f. destruct (widen_both i1 f1 i2 f2 l r Hl Hr) as (L1 & L2 & X & Y). fold i f in L1, L2, X, Y.
  set (al := widen_bits i1 f1 i f l) in *. set (ar := widen_bits i2 f2 i f r) in *.
  unfold qfixed_add_core, fill_pair. cbn [fst snd]. rewrite L1, L2, Nat.ltb_irrefl.
  cbn [fst snd]. rewrite !to_qint_repr_eq. cbn [obind].
  destruct (qint_add_spec (TQint 8) (TQfixed i f, qrepr i al) (TQfixed i f, qrepr i ar) eq_refl eq_refl
              (eq_trans (qrepr_length i al) L1) (eq_trans (qrepr_length i ar) L2)) as (s & Hs & _ & Ls & Vs).
  cbn [fst snd] in *. rewrite !qrepr_length, L1, L2, Nat.max_id in Ls, Vs.
  rewrite Hs. cbn [obind]. rewrite from_qint_repr_eq. cbn [obind].
  apply fx_val_some; [now rewrite unrepr_length|].
  intros rho. rewrite <- X, <- Y. unfold fxv. rewrite (qrepr_unrepr i f) by exact Ls. apply Vs.
Qed.

(* two operands of the same Qfixed type: the scale factors are 2^0 *)
Theorem qfixed_add_spec i f l r : length l = (i + f)%nat -> length r = (i + f)%nat ->
  fx_val (qfixed_add (TQfixed i f, l) (TQfixed i f, r)) i f (fun rho => (fxv rho i l + fxv rho i r) mod p2 (i + f)).
Proof.
  intros Hl Hr.
  pose proof (qfixed_add_mixed_spec i f i f l r (or_introl (conj eq_refl eq_refl)) Hl Hr) as H.
  cbv zeta in H. rewrite !Nat.max_id in H. apply (fx_val_ext H).
  intros rho. rewrite Nat.sub_diag. change (p2 0) with 1. now rewrite !N.mul_1_r.
Qed.

Lemma fxv_not rho i l : fxv rho i (map BNot l) = p2 (length l) - 1 - fxv rho i l.
Proof.
  unfold fxv. rewrite qrepr_map. pose proof (bv_not_add rho (qrepr i l)) as H.
  rewrite qrepr_length in H. lia.
Qed.

(* QfixedImp.sub looked up on a class cls no wider than the operands, same operand type.
   The same type comes first here: cls enters only through fill, which is the identity
   (fill_id) once bit_size cls <= i + f; the two-type statement below is this one on the aligned operands *)
Theorem qfixed_sub_spec cls i f l r : (bit_size cls <= i + f)%nat ->
  length l = (i + f)%nat -> length r = (i + f)%nat ->
  fx_val (qfixed_sub cls (TQfixed i f, l) (TQfixed i f, r)) i f
    (fun rho => (fxv rho i l + p2 (i + f) - fxv rho i r) mod p2 (i + f)).
Proof.
  intros Hc Hl Hr. unfold qfixed_sub, guard2. cbn [fst snd is_qtype andb]. rewrite with_align_same.
  rewrite !fill_id by (cbn [snd]; lia). change (bitwise_not (TQfixed i f, l)) with (TQfixed i f, map BNot l).
  apply (fx_val_bind (qfixed_add_spec i f (map BNot l) r ltac:(now rewrite map_length) Hr)).
  intros su Lsu Vsu. unfold bitwise_not. cbn [fst snd]. apply fx_val_some; [now rewrite map_length|].
  intros rho. rewrite fxv_not, Vsu, fxv_not, Lsu, Hl.
  pose proof (fxv_lt rho i l) as Ba. pose proof (fxv_lt rho i r) as Bb. rewrite Hl in Ba. rewrite Hr in Bb.
  now apply sub_arith.
Qed.

(* QfixedImp.sub as dispatched (cls = the left operand's type), ANY two Qfixed types *)
Theorem qfixed_sub_mixed_spec i1 f1 i2 f2 l r :
  align_ok i1 f1 i2 f2 -> length l = (i1 + f1)%nat -> length r = (i2 + f2)%nat ->
  let i := Nat.max i1 i2 in let f := Nat.max f1 f2 in
  fx_val (qfixed_sub (TQfixed i1 f1) (TQfixed i1 f1, l) (TQfixed i2 f2, r)) i f
    (fun rho => (fxv rho i1 l * p2 (f - f1) + p2 (i + f) - fxv rho i2 r * p2 (f - f2)) mod p2 (i + f)).
Proof.
  intros Hok Hl Hr i f.
  destruct (widen_both i1 f1 i2 f2 l r Hl Hr) as (L1 & L2 & X & Y).
  assert (Hc : (bit_size (TQfixed i1 f1) <= i + f)%nat) by (cbn [bit_size ty_size]; lia).
  pose proof (qfixed_sub_spec (TQfixed i1 f1) i f _ _ Hc L1 L2) as H.
  (* the method on the two types is the method on the aligned operands *)
  replace (qfixed_sub _ (_, l) _) with (qfixed_sub (TQfixed i1 f1) (TQfixed i f, widen_bits i1 f1 i f l)
                                                   (TQfixed i f, widen_bits i2 f2 i f r))
    by (unfold qfixed_sub, guard2; cbn [fst is_qtype andb]; now rewrite (with_align_eq Hok), with_align_same).
  apply (fx_val_ext H). intros rho. now rewrite X, Y.
Qed.

Lemma eqb_qrepr i f (x y : list bool) : length x = (i + f)%nat -> length y = (i + f)%nat ->
  (bits_val x =? bits_val y) = (bits_val (qrepr i x) =? bits_val (qrepr i y)).
Proof.
  intros Hx Hy. apply eq_true_iff_eq.
  rewrite !bits_val_eqb_iff by (rewrite ?qrepr_length; congruence).
  split; [now intros ->|]. intros H.
  rewrite <- (unrepr_qrepr i f x Hx), <- (unrepr_qrepr i f y Hy). now rewrite H.
Qed.

(* QfixedImp.eq / neq: on operands of equal length the zip alone decides, and the
   representation is a permutation of the bits *)
Theorem eq_zip_fxv rho i f l r : length l = (i + f)%nat -> length r = (i + f)%nat ->
  beval rho (eq_zip l r btrue) = (fxv rho i l =? fxv rho i r)
  /\ beval rho (neq_zip l r bfalse) = negb (fxv rho i l =? fxv rho i r).
Proof.
  intros Hl Hr.
  assert (E : beval rho (eq_zip l r btrue) = (fxv rho i l =? fxv rho i r)).
  { unfold fxv, bv. rewrite <- !qrepr_map, <- (eqb_qrepr i f) by (rewrite map_length; assumption).
    fold (bv rho l) (bv rho r). rewrite <- qint_eq_bits_spec. unfold qint_eq_bits.
    rewrite Hl, <- Hr, skipn_all, Hr, <- Hl, skipn_all. reflexivity. }
  split; [exact E|]. rewrite <- E. apply neq_zip_neg. reflexivity.
Qed.

(* the loop of QfixedImp.gt on two representations of equal length is QintImp.gt's *)
Lemma qfixed_gt_core_as_qint i f l r : length l = length r ->
  qfixed_gt_core (TQfixed i f, l) (TQfixed i f, r) = qint_gt_bits (qrepr i l) (qrepr i r).
Proof.
  intros Hlen. unfold qfixed_gt_core, qint_gt_bits. rewrite !to_qint_repr_eq. cbn [obind].
  destruct (gt_loop (qrepr i l) (qrepr i r)); [|reflexivity]. cbn [obind].
  rewrite (skipn_all2 (qrepr i r)) by (rewrite !qrepr_length; lia).
  rewrite (skipn_all2 (qrepr i l)) by (rewrite !qrepr_length; lia). reflexivity.
Qed.

(* all six comparisons, operands of ANY two Qfixed types with a common type:
   the comparison of the two values at the common scale.
   0 < i + f: QfixedImp.gt raises UnboundLocalError on operands without bits (qint_gt_bits_none) *)
Theorem qfixed_cmp_mixed_spec i1 f1 i2 f2 l r :
  align_ok i1 f1 i2 f2 -> length l = (i1 + f1)%nat -> length r = (i2 + f2)%nat ->
  (0 < Nat.max i1 i2 + Nat.max f1 f2)%nat ->
  let f := Nat.max f1 f2 in
  let tl := (TQfixed i1 f1, l) in let tr := (TQfixed i2 f2, r) in
  let x := fun rho => fxv rho i1 l * p2 (f - f1) in
  let y := fun rho => fxv rho i2 r * p2 (f - f2) in
  cmp_val (qfixed_eq tl tr) (fun rho => x rho =? y rho)
  /\ cmp_val (qfixed_neq tl tr) (fun rho => negb (x rho =? y rho))
  /\ cmp_val (qfixed_gt tl tr) (fun rho => y rho <? x rho)
  /\ cmp_val (qfixed_lt tl tr) (fun rho => x rho <? y rho)
  /\ cmp_val (qfixed_lte tl tr) (fun rho => x rho <=? y rho)
  /\ cmp_val (qfixed_gte tl tr) (fun rho => y rho <=? x rho).
Proof.
  intros Hok Hl Hr Hpos f tl tr x y. set (i := Nat.max i1 i2) in *.
  destruct (widen_both i1 f1 i2 f2 l r Hl Hr) as (L1 & L2 & X & Y). fold i f in L1, L2, X, Y.
  set (al := widen_bits i1 f1 i f l) in *. set (ar := widen_bits i2 f2 i f r) in *.
  change (forall rho, fxv rho i al = x rho) in X. change (forall rho, fxv rho i ar = y rho) in Y.
  unfold qfixed_eq, qfixed_neq, qfixed_gt, qfixed_lt, qfixed_lte, qfixed_gte, qfixed_gte_bits,
    qfixed_lt_bits, qfixed_lte_bits, qfixed_gt_bits, qfixed_eq_bit, guard2, tl, tr.
  cbn [fst is_qtype is_qfixed andb]. rewrite !(with_align_eq Hok). fold i f al ar.
  rewrite qfixed_gt_core_as_qint by congruence.
  destruct (qint_gt_bits (qrepr i al) (qrepr i ar)) as [g|] eqn:Hg.
  2:{ apply qint_gt_bits_none in Hg.
      destruct Hg as [E|E]; apply (f_equal (@length _)) in E; rewrite qrepr_length in E; cbn [length] in E; lia. }
  assert (Ve : forall rho, beval rho (eq_zip al ar btrue) = (x rho =? y rho)
                           /\ beval rho (neq_zip al ar bfalse) = negb (x rho =? y rho))
    by (intros rho; rewrite <- X, <- Y; exact (eq_zip_fxv rho i f al ar L1 L2)).
  assert (Vg : forall rho, beval rho g = (y rho <? x rho))
    by (intros rho; rewrite <- X, <- Y; now apply qint_gt_bits_spec).
  pose proof (fun rho => order_family rho g _ _ _ (Vg rho) (proj1 (Ve rho))) as H.
  unfold zip_eq, zip_neq. cbn [obind as_bool option_map snd].
  repeat split; apply cmp_val_some; intros rho; [apply Ve|apply Ve|apply Vg|apply H..].
Qed.

Lemma iter_add_spec i f l : length l = (i + f)%nat -> forall k v, length v = (i + f)%nat ->
  fx_val (iter_add k (TQfixed i f, l) (TQfixed i f, v)) i f
    (fun rho => (fxv rho i v + N.of_nat k * fxv rho i l) mod p2 (i + f)).
Proof.
  intros Hl. induction k as [|k IH]; intros v Hv.
  - apply fx_val_some; [exact Hv|]. intros rho.
    pose proof (fxv_lt rho i v) as B. rewrite Hv in B. cbn [N.of_nat]. rewrite N.mul_0_l, N.add_0_r.
    symmetry. now apply N.mod_small.
  - cbn [iter_add]. apply (fx_val_bind (qfixed_add_spec i f v l Hv Hl)). intros v' Lv' Vv'.
    apply (fx_val_ext (IH v' Lv')). intros rho.
    rewrite Vv', N.add_mod_idemp_l by apply p2_nz. f_equal. lia.
Qed.

Lemma frac_loop_zero f e : frac_loop f (mkdy 0 e) = repeat false f.
Proof.
  induction f as [|f IH]; cbn [frac_loop repeat]; [reflexivity|].
  unfold dy_dbl, dy_mod1, dy_int. cbn [dnum dexp].
  rewrite N.mod_0_l by (apply N.pow_nonzero; lia). cbn [N.mul].
  rewrite N.div_0_l by (apply N.pow_nonzero; lia). cbn [N.eqb]. f_equal. exact IH.
Qed.

Lemma qfixed_const_zero i f : qfixed_const i f (mkdy 0 0) = repeat false (i + f).
Proof.
  unfold qfixed_const, qfixed_to_bool. rewrite frac_loop_zero.
  unfold dy_int. cbn [dnum dexp]. change (2 ^ N.of_nat 0) with 1. rewrite N.div_1_r.
  rewrite N.mod_0_l by (apply N.pow_nonzero; lia).
  rewrite bin_to_bool_list_py_bin by (apply N.neq_0_lt_0, N.pow_nonzero; lia).
  rewrite nbits_zero. now rewrite repeat_app.
Qed.

(* the representation permutes the bits *)
Lemma forallb_qrepr {A} (p : A -> bool) i l : forallb p (qrepr i l) = forallb p l.
Proof.
  unfold qrepr. rewrite <- (firstn_skipn i l) at 3. rewrite !forallb_app, forallb_rev. apply andb_comm.
Qed.

Lemma fxv_zero rho i l : bv rho l = 0 -> fxv rho i l = 0.
Proof.
  unfold fxv, bv. rewrite <- qrepr_map, <- !N.eqb_eq, <- !forallb_negb_zero, forallb_qrepr. trivial.
Qed.

(* QfixedImp.mul: a Qfixed operand times an integer constant (any Qint type), by repeated addition *)
Theorem qfixed_mul_spec i f l wc cb :
  length l = (i + f)%nat -> cb <> [] -> forallb is_const_bit cb = true ->
  fx_val (qfixed_mul (TQfixed i f) (TQfixed i f, l) (TQint wc, cb)) i f
    (fun rho => (fxv rho i l * const_bits_val cb) mod p2 (i + f)).
Proof.
  intros Hl Hne Hc. unfold qfixed_mul, guard2. cbn [fst snd is_qtype is_qint andb obind].
  unfold is_const. cbn [snd]. rewrite Hc. cbn [negb].
  destruct cb as [|c0 cb']; [congruence|]. set (cb := c0 :: cb') in *.
  destruct (N.eqb_spec (const_bits_val cb) 0) as [E|E].
  - rewrite qfixed_const_zero. apply fx_val_some; [now rewrite map_length, repeat_length|].
    intros rho. rewrite E, N.mul_0_r, N.mod_0_l by apply p2_nz.
    apply fxv_zero. unfold bv. rewrite map_beval_const. apply bits_val_repeat_false.
  - apply (fx_val_ext (iter_add_spec i f l Hl (N.to_nat (const_bits_val cb) - 1) l Hl)). intros rho. f_equal.
    replace (N.of_nat (N.to_nat (const_bits_val cb) - 1)) with (const_bits_val cb - 1) by lia. nia.
Qed.

(* the constant on the LEFT (translate_expression dispatches `3 * a` to the Qfixed type's mul too).
   qfixed_mul takes whichever operand has a Qint type as the multiplier, and is_qint decides that
   by computation on the type tags: both argument orders reduce to the same term, so this
   statement is convertible with qfixed_mul_spec's *)
Theorem qfixed_mul_left_spec i f l wc cb :
  length l = (i + f)%nat -> cb <> [] -> forallb is_const_bit cb = true ->
  fx_val (qfixed_mul (TQfixed i f) (TQint wc, cb) (TQfixed i f, l)) i f
    (fun rho => (fxv rho i l * const_bits_val cb) mod p2 (i + f)).
Proof. exact (qfixed_mul_spec i f l wc cb). Qed.

(* the constant operand of type t with the bits l (little-endian, as stored) *)
Definition cst (t : ty) (l : list bool) : texp := (t, map BConst l).

(* a % 3 computes a & 2 *)
Example qint_mod_non_pow2_refuted :
  exists tl tr r, good tl 4 /\ good tr 4 /\ qint_mod tl tr = Some r
    /\ bv rho0 (snd r) <> bv rho0 (snd tl) mod bv rho0 (snd tr)
    /\ bv rho0 (snd r) = N.land (bv rho0 (snd tl)) (bv rho0 (snd tr) - 1).
Proof.
  exists (qint_const_e 4 1), (qint_const_e 4 3). eexists.
  split; [split; reflexivity|]. split; [split; reflexivity|]. split; [vm_compute; reflexivity|].
  split; vm_compute; congruence.
Qed.

(* operands of different Qfixed types are aligned first:
   Qfixed1_2 0.5 + Qfixed2_2 0.0 = 0.5;  Qfixed2_2 2.0 - Qfixed1_2 0.5 = 1.5 *)
Example qfixed_add_sub_mixed_ex :
  let a := cst (TQfixed 1 2) [false; true; false] in          (* 0.5 *)
  let z := cst (TQfixed 2 2) [false; false; false; false] in  (* 0.0 *)
  let b := cst (TQfixed 2 2) [false; true; false; false] in   (* 2.0 *)
  option_map (fun r => (fst r, fxv rho0 2 (snd r))) (qfixed_add a z) = Some (TQfixed 2 2, 2)
  /\ option_map (fun r => (fst r, fxv rho0 2 (snd r))) (qfixed_sub (TQfixed 2 2) b a) = Some (TQfixed 2 2, 6).
Proof. split; vm_compute; reflexivity. Qed.

(* 0.5 (Qfixed1_2) == 2.0 (Qfixed2_2) is false; 0.0 > 2.0 is false;
   0.75 (Qfixed1_2) > 0.5 (Qfixed1_3) is true *)
Example qfixed_cmp_mixed_ex :
  let a := cst (TQfixed 1 2) [false; true; false] in
  let b := cst (TQfixed 2 2) [false; true; false; false] in
  let z := cst (TQfixed 1 2) [false; false; false] in
  let c := cst (TQfixed 1 2) [false; true; true] in
  let d := cst (TQfixed 1 3) [false; true; false; false] in
  option_map (fun r => map (beval rho0) (snd r)) (qfixed_eq a b) = Some [false]
  /\ option_map (fun r => map (beval rho0) (snd r)) (qfixed_gt z b) = Some [false]
  /\ option_map (fun r => map (beval rho0) (snd r)) (qfixed_gt c d) = Some [true]
  /\ option_map (fun r => map (beval rho0) (snd r)) (qfixed_lt z b) = Some [true].
Proof. repeat split; vm_compute; reflexivity. Qed.

(* Qchar compares as an unsigned integer of any width: 'a' (97) == Qint4 1 is false,
   though the two agree on the 4 low bits that the zip sees *)
Example qchar_eq_qint_ex :
  option_map (fun r => map (beval rho0) (snd r)) (qchar_eq (cst TQchar (nbits 8 97)) (qint_const_e 4 1)) = Some [false]
  /\ option_map (fun r => map (beval rho0) (snd r)) (qchar_eq (cst TQchar (nbits 8 1)) (qint_const_e 4 1)) = Some [true].
Proof. split; vm_compute; reflexivity. Qed.

(* a pair of shapes with no common shipped type is rejected (TypeErrorException) *)
Example qfixed_align_rejects :
  is_shipped_qfixed 5 2 = false /\
  qfixed_add (cst (TQfixed 5 1) (repeat false 6)) (cst (TQfixed 1 2) (repeat false 3)) = None.
Proof. split; vm_compute; reflexivity. Qed.
