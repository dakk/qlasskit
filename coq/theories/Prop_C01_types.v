(* Prop_C01_types.v — property C01, types layer: what every fixed-width
   bit-vector operation of qlasskit/types (as modelled in M_Types.v) computes,
   for EVERY width, every operand length and every assignment of the symbols.
   The proofs rest on P_Types.v.

   Vocabulary (definitions in P_Types.v):
     bv rho l            the number the little-endian expression list l denotes under rho
     p2 n                2^n
     wf_te (t, l)        the list has exactly BIT_SIZE(t) elements
     good v k            v is typed Qint[k] and has k elements
     has_val x t w f     the method returns Some (t, bits) with w bits and bv rho bits = f rho for all rho
     cmp_val x f         the comparison returns Some (bool, [e]) with beval rho e = f rho for all rho
     fxv rho i l         the scaled integer value * 2^f of a Qfixed(i, f) bit list
     wider tl tr         the type of the operand with more bits, the left one's on a tie
     add_type cls tl tr  cls if BIT_SIZE(cls) exceeds that of wider tl tr, else wider tl tr
     sub_type cls tl tr  cls if BIT_SIZE(cls) exceeds both operands' lengths, else wider tl tr
     bitwise_type tl tr  the type of the operand with more bits, the RIGHT one's on a tie
     align_ok i1 f1 i2 f2  the two Qfixed shapes are equal, or Qfixed(max i, max f) is a shipped type
     cst t l             the constant operand of type t with the bits l
   The Qint theorems are stated with has_val; the Qfixed ones spell the same three facts out
   (result, length, fxv of the result), P_Types.fx_val unfolded, so that they read without it.
   A result None of the model is "the Python method raises". *)
From Coq Require Import List Bool NArith Arith.
From QV Require Import Bits Bexp BexpTT M_Codec Generated M_Types P_Types.
Import ListNotations.
Local Open Scope N_scope.

(* symbolic operand: type t, symbols off .. off+w-1 *)
Definition symv (t : ty) (off w : nat) : texp := (t, map BSym (seq off w)).
(* the assignment whose symbol k is bit k of x *)
Definition asgn (x : N) : nat -> bool := fun k => N.testbit x (N.of_nat k).

Theorem C01t_fill : forall rho cls v,
  bv rho (snd (fill cls v)) = bv rho (snd v)
  /\ length (snd (fill cls v)) = Nat.max (length (snd v)) (bit_size cls).
Proof. intros rho cls v. split; [apply fill_bv|apply fill_length]. Qed.
Print Assumptions C01t_fill.

Theorem C01t_crop : forall rho cls v,
  bv rho (snd (crop cls v)) = bv rho (snd v) mod p2 (bit_size cls)
  /\ length (snd (crop cls v)) = Nat.min (length (snd v)) (bit_size cls).
Proof. intros rho cls v. split; [apply crop_bv|apply crop_length]. Qed.
Print Assumptions C01t_crop.

Theorem C01t_shift_left : forall rho v k r, shift_left v k = Some r ->
  fst r = fst v /\
  length (snd r) = Nat.min (k + length (snd v)) (bit_size (fst v)) /\
  bv rho (snd r) = (bv rho (snd v) * p2 k) mod p2 (bit_size (fst v)).
Proof. exact shift_left_spec. Qed.
Print Assumptions C01t_shift_left.

Theorem C01t_shift_right : forall rho v k r, shift_right v k = Some r ->
  fst r = fst v /\
  length (snd r) = Nat.max (length (snd v) - k) (bit_size (fst v)) /\
  bv rho (snd r) = bv rho (snd v) / p2 k.
Proof. exact shift_right_spec. Qed.
Print Assumptions C01t_shift_right.

Theorem C01t_shifts_total : forall v k, is_qtype (fst v) = true ->
  (exists r, shift_left v k = Some r) /\ (exists r, shift_right v k = Some r).
Proof. intros v k H. split; [now apply shift_left_total|]. unfold shift_right. rewrite H. eauto. Qed.
Print Assumptions C01t_shifts_total.

Example C01t_shift_ex :
  let a := symv (TQint 4) 0 4 in
  option_map (fun r => bv (asgn 13) (snd r)) (shift_left a 2) = Some 4       (* 13 * 4 mod 16 *)
  /\ option_map (fun r => bv (asgn 13) (snd r)) (shift_right a 2) = Some 3.
Proof. split; vm_compute; reflexivity. Qed.

Theorem C01t_bitwise_not : forall rho v,
  fst (bitwise_not v) = fst v /\ length (snd (bitwise_not v)) = length (snd v)
  /\ bv rho (snd (bitwise_not v)) = p2 (length (snd v)) - 1 - bv rho (snd v)
  /\ bv rho (snd (bitwise_not v)) = N.lnot (bv rho (snd v)) (N.of_nat (length (snd v))).
Proof. exact bitwise_not_spec. Qed.
Print Assumptions C01t_bitwise_not.

Theorem C01t_full_adder : forall rho c a b,
  N.b2n (beval rho (snd (full_adder c a b))) + 2 * N.b2n (beval rho (fst (full_adder c a b)))
  = N.b2n (beval rho c) + N.b2n (beval rho a) + N.b2n (beval rho b).
Proof. exact full_adder_spec. Qed.
Print Assumptions C01t_full_adder.

Theorem C01t_ripple : forall rho ps c,
  bv rho (ripple c ps)
  = (N.b2n (beval rho c) + bv rho (map fst ps) + bv rho (map snd ps)) mod p2 (length ps).
Proof. exact ripple_spec. Qed.
Print Assumptions C01t_ripple.

Theorem C01t_qint_eq_neq : forall tl tr, is_qtype (fst tl) = true -> is_qtype (fst tr) = true ->
  cmp_val (qint_eq tl tr) (fun rho => bv rho (snd tl) =? bv rho (snd tr))
  /\ cmp_val (qint_neq tl tr) (fun rho => negb (bv rho (snd tl) =? bv rho (snd tr))).
Proof. exact qint_eq_spec. Qed.
Print Assumptions C01t_qint_eq_neq.

Theorem C01t_qint_order : forall tl tr, is_qtype (fst tl) = true -> is_qtype (fst tr) = true ->
  snd tl <> [] -> snd tr <> [] ->
  cmp_val (qint_gt tl tr) (fun rho => bv rho (snd tr) <? bv rho (snd tl))
  /\ cmp_val (qint_lt tl tr) (fun rho => bv rho (snd tl) <? bv rho (snd tr))
  /\ cmp_val (qint_lte tl tr) (fun rho => bv rho (snd tl) <=? bv rho (snd tr))
  /\ cmp_val (qint_gte tl tr) (fun rho => bv rho (snd tr) <=? bv rho (snd tl)).
Proof. exact qint_order_spec. Qed.
Print Assumptions C01t_qint_order.

Theorem C01t_qint_order_raises : forall tl tr, snd tl = [] \/ snd tr = [] ->
  qint_gt tl tr = None /\ qint_lt tl tr = None /\ qint_lte tl tr = None /\ qint_gte tl tr = None.
Proof. exact qint_order_raises. Qed.
Print Assumptions C01t_qint_order_raises.

(* operands of different lengths: Qint2 a = 3 against Qint4 b = 9 *)
Example C01t_qint_order_ex :
  let a := symv (TQint 2) 0 2 in let b := symv (TQint 4) 2 4 in
  let rho := asgn (3 + 4 * 9) in
  is_qtype (fst a) = true /\ is_qtype (fst b) = true /\ snd a <> [] /\ snd b <> []
  /\ bv rho (snd a) = 3 /\ bv rho (snd b) = 9
  /\ option_map (fun r => map (beval rho) (snd r)) (qint_gt a b) = Some [false]
  /\ option_map (fun r => map (beval rho) (snd r)) (qint_lt a b) = Some [true]
  /\ option_map (fun r => map (beval rho) (snd r)) (qint_eq a b) = Some [false].
Proof. repeat split; try (vm_compute; reflexivity); discriminate. Qed.

Theorem C01t_qint_add : forall cls tl tr,
  is_qtype (fst tl) = true -> is_qtype (fst tr) = true -> wf_te tl -> wf_te tr ->
  let w := Nat.max (length (snd tl)) (length (snd tr)) in
  has_val (qint_add cls tl tr) (add_type cls tl tr) w
          (fun rho => (bv rho (snd tl) + bv rho (snd tr)) mod p2 w).
Proof. exact qint_add_spec. Qed.
Print Assumptions C01t_qint_add.

Theorem C01t_qint_sub : forall cls tl tr,
  is_qtype cls = true -> is_qtype (fst tl) = true -> is_qtype (fst tr) = true ->
  wf_te tl -> wf_te tr ->
  let w := Nat.max (Nat.max (length (snd tl)) (length (snd tr))) (bit_size cls) in
  has_val (qint_sub cls tl tr) (sub_type cls tl tr) w
          (fun rho => (bv rho (snd tl) + p2 w - bv rho (snd tr)) mod p2 w).
Proof. exact qint_sub_spec. Qed.
Print Assumptions C01t_qint_sub.

(* as dispatched by translate_expression: cls = the left operand's type *)
Corollary C01t_qint_sub_dispatch : forall tl tr,
  is_qtype (fst tl) = true -> is_qtype (fst tr) = true -> wf_te tl -> wf_te tr ->
  let w := Nat.max (length (snd tl)) (length (snd tr)) in
  has_val (qint_sub (fst tl) tl tr) (wider tl tr) w
          (fun rho => (bv rho (snd tl) + p2 w - bv rho (snd tr)) mod p2 w).
Proof. exact qint_sub_dispatch. Qed.
Print Assumptions C01t_qint_sub_dispatch.

(* Qint2 + Qint4 and Qint2 - Qint4: result Qint4; 3 + 9 = 12, 1 - 3 = 14 mod 16 *)
Example C01t_qint_add_sub_ex :
  let a := symv (TQint 2) 0 2 in let b := symv (TQint 4) 2 4 in
  is_qtype (fst a) = true /\ is_qtype (fst b) = true /\ wf_te a /\ wf_te b
  /\ add_type (TQint 2) a b = TQint 4 /\ wider a b = TQint 4
  /\ option_map (fun r => (fst r, bv (asgn (3 + 4 * 9)) (snd r))) (qint_add (TQint 2) a b) = Some (TQint 4, 12)
  /\ option_map (fun r => (fst r, bv (asgn (1 + 4 * 3)) (snd r))) (qint_sub (TQint 2) a b) = Some (TQint 4, 14).
Proof. repeat split; vm_compute; reflexivity. Qed.

Theorem C01t_qint_bitwise : forall tl tr,
  is_qtype (fst tl) = true -> is_qtype (fst tr) = true -> wf_te tl -> wf_te tr ->
  let w := Nat.max (length (snd tl)) (length (snd tr)) in
  has_val (qint_bitwise_and tl tr) (bitwise_type tl tr) w (fun rho => N.land (bv rho (snd tl)) (bv rho (snd tr)))
  /\ has_val (qint_bitwise_or tl tr) (bitwise_type tl tr) w (fun rho => N.lor (bv rho (snd tl)) (bv rho (snd tr)))
  /\ has_val (qint_bitwise_xor tl tr) (bitwise_type tl tr) w (fun rho => N.lxor (bv rho (snd tl)) (bv rho (snd tr))).
Proof.
  intros tl tr Ql Qr Wl Wr w. split; [|split].
  - now apply (qint_bitwise_spec _ andb N.land beval_and2 N.land_spec).
  - now apply (qint_bitwise_spec _ orb N.lor beval_or2 N.lor_spec).
  - now apply (qint_bitwise_spec _ xorb N.lxor beval_xor2 N.lxor_spec).
Qed.
Print Assumptions C01t_qint_bitwise.

Example C01t_qint_bitwise_ex :
  let a := symv (TQint 4) 0 4 in let b := symv (TQint 2) 4 2 in
  wf_te a /\ wf_te b /\ bitwise_type a b = TQint 4
  /\ option_map (fun r => (fst r, bv (asgn (13 + 16 * 3)) (snd r))) (qint_bitwise_xor a b) = Some (TQint 4, 14).
Proof. repeat split; vm_compute; reflexivity. Qed.

Theorem C01t_qint_const : forall w v, (0 < w)%nat ->
  fst (qint_const_e w v) = TQint w /\ wf_te (qint_const_e w v) /\ is_const (qint_const_e w v) = true
  /\ forall rho, map (beval rho) (snd (qint_const_e w v)) = nbits w (v mod p2 w)
                 /\ bv rho (snd (qint_const_e w v)) = v mod p2 w.
Proof. exact qint_const_e_spec. Qed.
Print Assumptions C01t_qint_const.

Theorem C01t_qint_mod : forall tl tr wr,
  fst tr = TQint wr -> (0 < wr)%nat -> is_qtype (fst tl) = true -> wf_te tl -> wf_te tr ->
  has_val (qint_mod tl tr)
          (if (wr <? length (snd tl))%nat then fst tl else TQint wr)
          (Nat.max (length (snd tl)) wr)
          (fun rho => N.land (bv rho (snd tl)) ((bv rho (snd tr) + p2 wr - 1) mod p2 wr)).
Proof. exact qint_mod_spec. Qed.
Print Assumptions C01t_qint_mod.

(* the documented case: a right operand that is a power of two *)
Theorem C01t_qint_mod_pow2_partial : forall tl tr wr,
  fst tr = TQint wr -> (0 < wr)%nat -> is_qtype (fst tl) = true -> wf_te tl -> wf_te tr ->
  exists r, qint_mod tl tr = Some r /\
    forall rho k, bv rho (snd tr) = p2 k -> bv rho (snd r) = bv rho (snd tl) mod p2 k.
Proof. exact qint_mod_pow2. Qed.
Print Assumptions C01t_qint_mod_pow2_partial.

(* a % 3 is a & 2 *)
Theorem C01t_qint_mod_refuted :
  exists tl tr r, good tl 4 /\ good tr 4 /\ qint_mod tl tr = Some r
    /\ bv rho0 (snd r) <> bv rho0 (snd tl) mod bv rho0 (snd tr)
    /\ bv rho0 (snd r) = N.land (bv rho0 (snd tl)) (bv rho0 (snd tr) - 1).
Proof. exact qint_mod_non_pow2_refuted. Qed.
Print Assumptions C01t_qint_mod_refuted.

Example C01t_qint_mod_ex :
  let a := symv (TQint 4) 0 4 in let b := qint_const_e 2 2 in
  fst b = TQint 2 /\ wf_te a /\ wf_te b /\ bv (asgn 13) (snd b) = p2 1
  /\ option_map (fun r => (fst r, bv (asgn 13) (snd r))) (qint_mod a b) = Some (TQint 4, 1).
Proof. repeat split; vm_compute; reflexivity. Qed.

(* the array multiplier on operand lists of ANY two lengths *)
Theorem C01t_array_mul : forall rho l r,
  length (array_mul l r (length l) (length r)) = (length l + length r)%nat
  /\ bv rho (array_mul l r (length l) (length r)) = bv rho l * bv rho r.
Proof. intros rho l r. now apply array_mul_spec. Qed.
Print Assumptions C01t_array_mul.

(* shift-and-add with recursion on the remainder: EVERY constant, even or odd *)
Theorem C01t_mul_even_const : forall fuel t_num c wr, (N.to_nat (N.size c) < fuel)%nat ->
  has_val (mul_even_const fuel t_num c wr) (TQint wr) wr (fun rho => (bv rho t_num * c) mod p2 wr).
Proof. exact mul_even_const_spec. Qed.
Print Assumptions C01t_mul_even_const.

Theorem C01t_mul_even_const_obj : forall wc t_num raw wr, raw < p2 wc ->
  has_val (mul_even_const_obj wc t_num raw wr) (TQint wr) wr (fun rho => (bv rho t_num * raw) mod p2 wr).
Proof. exact mul_even_const_obj_spec. Qed.
Print Assumptions C01t_mul_even_const_obj.

(* QintImp.mul, two Qint operands of any widths, symbolic or constant *)
Theorem C01t_qint_mul : forall tl tr wl wr,
  good tl wl -> good tr wr -> (0 < wl)%nat -> (0 < wr)%nat ->
  let s := mul_sizing (Nat.max wl wr + Nat.max wl wr) in
  has_val (qint_mul tl tr) (TQint s) s (fun rho => (bv rho (snd tl) * bv rho (snd tr)) mod p2 s).
Proof. exact qint_mul_spec. Qed.
Print Assumptions C01t_qint_mul.

(* below 16 result bits nothing is lost: 2w <= 16 -> the product is exact *)
Theorem C01t_mul_sizing : forall k, (k <= 16)%nat -> (k <= mul_sizing k)%nat.
Proof.
  intros k H. unfold mul_sizing.
  destruct (Nat.leb_spec k 2); [assumption|]. destruct (Nat.leb_spec k 4); [assumption|].
  destruct (Nat.leb_spec k 6); [assumption|]. destruct (Nat.leb_spec k 8); [assumption|].
  destruct (Nat.leb_spec k 12); [assumption|exact H].
Qed.
Print Assumptions C01t_mul_sizing.

(* Qint2 * Qint4 -> Qint8 (3 * 13 = 39); a * 6 through the shortcut (13 * 6 = 78);
   constant * constant with an even left operand (12 * 6 = 72) *)
Example C01t_qint_mul_ex :
  let a := symv (TQint 2) 0 2 in let b := symv (TQint 4) 2 4 in
  good a 2 /\ good b 4 /\ good (qint_const_e 4 12) 4
  /\ mul_sizing (Nat.max 2 4 + Nat.max 2 4) = 8%nat
  /\ option_map (fun r => (fst r, bv (asgn 0) (snd r))) (qint_mul (qint_const_e 4 12) (qint_const_e 4 6)) = Some (TQint 8, 72)
  /\ option_map (fun r => (fst r, bv (asgn (3 + 4 * 13)) (snd r))) (qint_mul a b) = Some (TQint 8, 39)
  /\ option_map (fun r => (fst r, bv (asgn (4 * 13)) (snd r))) (qint_mul b (qint_const_e 4 6)) = Some (TQint 8, 78).
Proof. repeat split; vm_compute; reflexivity. Qed.

(* Qfixed arithmetic is on the scaled integer value * 2^f.
   Operands of two Qfixed types (i1,f1), (i2,f2) are first aligned to the shipped type
   (max i, max f); align_ok = same type, or that type is shipped; the meaning is stated
   at the common scale 2^max(f1,f2).  For one type on both sides: p2 (f - f) = 1. *)
Theorem C01t_qfixed_add : forall i f l r, length l = (i + f)%nat -> length r = (i + f)%nat ->
  exists res, qfixed_add (TQfixed i f, l) (TQfixed i f, r) = Some (TQfixed i f, res)
    /\ length res = (i + f)%nat
    /\ forall rho, fxv rho i res = (fxv rho i l + fxv rho i r) mod p2 (i + f).
Proof. exact qfixed_add_spec. Qed.
Print Assumptions C01t_qfixed_add.

Theorem C01t_qfixed_add_mixed : forall i1 f1 i2 f2 l r,
  align_ok i1 f1 i2 f2 -> length l = (i1 + f1)%nat -> length r = (i2 + f2)%nat ->
  let i := Nat.max i1 i2 in let f := Nat.max f1 f2 in
  exists res, qfixed_add (TQfixed i1 f1, l) (TQfixed i2 f2, r) = Some (TQfixed i f, res)
    /\ length res = (i + f)%nat
    /\ forall rho, fxv rho i res
         = (fxv rho i1 l * p2 (f - f1) + fxv rho i2 r * p2 (f - f2)) mod p2 (i + f).
Proof. exact qfixed_add_mixed_spec. Qed.
Print Assumptions C01t_qfixed_add_mixed.

Theorem C01t_qfixed_sub : forall cls i f l r, (bit_size cls <= i + f)%nat ->
  length l = (i + f)%nat -> length r = (i + f)%nat ->
  exists res, qfixed_sub cls (TQfixed i f, l) (TQfixed i f, r) = Some (TQfixed i f, res)
    /\ length res = (i + f)%nat
    /\ forall rho, fxv rho i res = (fxv rho i l + p2 (i + f) - fxv rho i r) mod p2 (i + f).
Proof. exact qfixed_sub_spec. Qed.
Print Assumptions C01t_qfixed_sub.

Theorem C01t_qfixed_sub_mixed : forall i1 f1 i2 f2 l r,
  align_ok i1 f1 i2 f2 -> length l = (i1 + f1)%nat -> length r = (i2 + f2)%nat ->
  let i := Nat.max i1 i2 in let f := Nat.max f1 f2 in
  exists res, qfixed_sub (TQfixed i1 f1) (TQfixed i1 f1, l) (TQfixed i2 f2, r) = Some (TQfixed i f, res)
    /\ length res = (i + f)%nat
    /\ forall rho, fxv rho i res
         = (fxv rho i1 l * p2 (f - f1) + p2 (i + f) - fxv rho i2 r * p2 (f - f2)) mod p2 (i + f).
Proof. exact qfixed_sub_mixed_spec. Qed.
Print Assumptions C01t_qfixed_sub_mixed.

Theorem C01t_qfixed_cmp : forall i f l r,
  length l = (i + f)%nat -> length r = (i + f)%nat -> (0 < i + f)%nat ->
  let tl := (TQfixed i f, l) in let tr := (TQfixed i f, r) in
  cmp_val (qfixed_eq tl tr) (fun rho => fxv rho i l =? fxv rho i r)
  /\ cmp_val (qfixed_neq tl tr) (fun rho => negb (fxv rho i l =? fxv rho i r))
  /\ cmp_val (qfixed_gt tl tr) (fun rho => fxv rho i r <? fxv rho i l)
  /\ cmp_val (qfixed_lt tl tr) (fun rho => fxv rho i l <? fxv rho i r)
  /\ cmp_val (qfixed_lte tl tr) (fun rho => fxv rho i l <=? fxv rho i r)
  /\ cmp_val (qfixed_gte tl tr) (fun rho => fxv rho i r <=? fxv rho i l).
Proof.
  intros i f l r Hl Hr Hpos tl tr.
  (* the case i1 = i2, f1 = f2 of the theorem for two types: the scale factors are 2^0 *)
  destruct (qfixed_cmp_mixed_spec i f i f l r) as (H1 & H2 & H3 & H4 & H5 & H6);
    [left; now split|assumption|assumption|now rewrite !Nat.max_id|].
  repeat split; (eapply cmp_val_ext; [eassumption|]); intros rho; cbv beta;
    rewrite Nat.max_id, Nat.sub_diag; change (p2 0) with 1; now rewrite !N.mul_1_r.
Qed.
Print Assumptions C01t_qfixed_cmp.

Theorem C01t_qfixed_cmp_mixed : forall i1 f1 i2 f2 l r,
  align_ok i1 f1 i2 f2 -> length l = (i1 + f1)%nat -> length r = (i2 + f2)%nat ->
  (0 < Nat.max i1 i2 + Nat.max f1 f2)%nat ->
  let f := Nat.max f1 f2 in
  let tl := (TQfixed i1 f1, l) in let tr := (TQfixed i2 f2, r) in
  let x := fun rho => fxv rho i1 l * p2 (f - f1) in
  let y := fun rho => fxv rho i2 r * p2 (f - f2) in
  cmp_val (qfixed_eq tl tr) (fun rho => x rho =? y rho)
  /\ cmp_val (qfixed_neq tl tr) (fun rho => negb (x rho =? y rho))
  /\ cmp_val (qfixed_gt tl tr) (fun rho => y rho <? x rho)
  /\ cmp_val (qfixed_lt tl tr) (fun rho => x rho <? y rho)
  /\ cmp_val (qfixed_lte tl tr) (fun rho => x rho <=? y rho)
  /\ cmp_val (qfixed_gte tl tr) (fun rho => y rho <=? x rho).
Proof. exact qfixed_cmp_mixed_spec. Qed.
Print Assumptions C01t_qfixed_cmp_mixed.

(* the hypothesis align_ok holds for every pair of shipped Qfixed types (checked on the
   QFIXED_TYPES list read from /repo on this run, Generated.shipped_qfixed) *)
Theorem C01t_shipped_qfixed_align_ok : forall i1 f1 i2 f2,
  In (i1, f1) shipped_qfixed -> In (i2, f2) shipped_qfixed -> align_ok i1 f1 i2 f2.
Proof.
  intros i1 f1 i2 f2 H1 H2. right. pose proof shipped_qfixed_closed as H. rewrite forallb_forall in H.
  specialize (H _ H1). rewrite forallb_forall in H. exact (H _ H2).
Qed.
Print Assumptions C01t_shipped_qfixed_align_ok.

Theorem C01t_qfixed_mul : forall i f l wc cb,
  length l = (i + f)%nat -> cb <> [] -> forallb is_const_bit cb = true ->
  exists res, qfixed_mul (TQfixed i f) (TQfixed i f, l) (TQint wc, cb) = Some (TQfixed i f, res)
    /\ length res = (i + f)%nat
    /\ forall rho, fxv rho i res = (fxv rho i l * const_bits_val cb) mod p2 (i + f).
Proof. exact qfixed_mul_spec. Qed.
Print Assumptions C01t_qfixed_mul.

(* the constant on the left: `3 * a` is dispatched to the Qfixed type's mul as well *)
Theorem C01t_qfixed_mul_left : forall i f l wc cb,
  length l = (i + f)%nat -> cb <> [] -> forallb is_const_bit cb = true ->
  exists res, qfixed_mul (TQfixed i f) (TQint wc, cb) (TQfixed i f, l) = Some (TQfixed i f, res)
    /\ length res = (i + f)%nat
    /\ forall rho, fxv rho i res = (fxv rho i l * const_bits_val cb) mod p2 (i + f).
Proof. exact qfixed_mul_left_spec. Qed.
Print Assumptions C01t_qfixed_mul_left.

(* a non-constant multiplier is rejected *)
Example C01t_qfixed_mul_nonconst_ex :
  qfixed_mul (TQfixed 2 2) (symv (TQfixed 2 2) 0 4) (symv (TQint 2) 4 2) = None
  /\ qfixed_mul (TQfixed 2 2) (symv (TQint 2) 4 2) (symv (TQfixed 2 2) 0 4) = None.
Proof. split; vm_compute; reflexivity. Qed.

(* Qfixed2_2: 1.25 + 2.75 = 4.0 = 0.0 mod 4;  1.25 < 2.75;  1.25 * 3 = 3.75 *)
Example C01t_qfixed_ex :
  let a := symv (TQfixed 2 2) 0 4 in let b := symv (TQfixed 2 2) 4 4 in
  (* raw lists: integer bits little-endian, then fraction bits most significant first *)
  let rho := asgn (1 + 8 (* 1.25 = 1, .01 *) + 16 * (2 + 4 + 8) (* 2.75 = 2, .11 *)) in
  length (snd a) = (2 + 2)%nat /\ length (snd b) = (2 + 2)%nat
  /\ fxv rho 2 (snd a) = 5 /\ fxv rho 2 (snd b) = 11
  /\ option_map (fun r => fxv rho 2 (snd r)) (qfixed_add a b) = Some 0
  /\ option_map (fun r => fxv rho 2 (snd r)) (qfixed_sub (TQfixed 2 2) a b) = Some 10
  /\ option_map (fun r => map (beval rho) (snd r)) (qfixed_lt a b) = Some [true]
  /\ option_map (fun r => fxv rho 2 (snd r)) (qfixed_mul (TQfixed 2 2) a (qint_const_e 2 3)) = Some 15.
Proof. repeat split; vm_compute; reflexivity. Qed.

(* different types: a : Qfixed2_3 against the literal 1.5 typed Qfixed1_2 (what `a > 1.5`
   and `a + 0.5` produce): common type Qfixed2_3, scale 2^3; a = 1.0 is not > 1.5, 1.0 + 1.5 = 2.5 *)
Example C01t_qfixed_mixed_ex :
  let a := symv (TQfixed 2 3) 0 5 in let c := cst (TQfixed 1 2) [true; true; false] in
  let rho := asgn 1 in
  align_ok 2 3 1 2 /\ In (2, 3)%nat shipped_qfixed /\ In (1, 2)%nat shipped_qfixed
  /\ fxv rho 2 (snd a) = 8 /\ fxv rho 1 (snd c) * p2 (3 - 2) = 12
  /\ option_map (fun r => map (beval rho) (snd r)) (qfixed_gt a c) = Some [false]
  /\ option_map (fun r => (fst r, fxv rho 2 (snd r))) (qfixed_add a c) = Some (TQfixed 2 3, 20).
Proof.
  repeat split; try (vm_compute; reflexivity).
  - right. vm_compute. reflexivity.
  - vm_compute. tauto.
  - vm_compute. tauto.
Qed.

(* Qchar.eq / neq: ANY two operand lengths (Qchar == Qint of another width included) *)
Theorem C01t_qchar_eq_neq : forall tl tr, is_qtype (fst tl) = true -> is_qtype (fst tr) = true ->
  cmp_val (qchar_eq tl tr) (fun rho => bv rho (snd tl) =? bv rho (snd tr))
  /\ cmp_val (qchar_neq tl tr) (fun rho => negb (bv rho (snd tl) =? bv rho (snd tr))).
Proof. exact qint_eq_spec. Qed.
Print Assumptions C01t_qchar_eq_neq.

Theorem C01t_qbool : forall rho tl tr,
  beval rho (snd (qbool_eq tl tr)) = Bool.eqb (beval rho (snd tl)) (beval rho (snd tr))
  /\ beval rho (snd (qbool_neq tl tr)) = xorb (beval rho (snd tl)) (beval rho (snd tr))
  /\ fst (qbool_eq tl tr) = fst tl /\ fst (qbool_neq tl tr) = fst tl.
Proof. intros rho tl tr. unfold qbool_eq, qbool_neq. cbn [fst snd]. now rewrite beval_b_eq, beval_b_neq. Qed.
Print Assumptions C01t_qbool.

Example C01t_qchar_ex :
  let a := symv TQchar 0 8 in let b := cst TQchar (nbits 8 97) in
  option_map (fun r => map (beval (asgn 97)) (snd r)) (qchar_eq a (qint_const_e 4 1)) = Some [false]
  /\ option_map (fun r => map (beval (asgn 97)) (snd r)) (qchar_eq a b) = Some [true]
  /\ option_map (fun r => map (beval (asgn 98)) (snd r)) (qchar_eq a b) = Some [false].
Proof. repeat split; vm_compute; reflexivity. Qed.
