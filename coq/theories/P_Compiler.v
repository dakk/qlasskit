(* P_Compiler.v — the synthesiser model M_Compiler.v satisfies C02 and C03 on a class of
   programs (in_class).
   A gate list acts on classical states (grun).  For one input [inp] and the values [env]
   of all symbols on it, the invariant [Inv] says that every named qubit and every cache
   entry holds the value of what it stands for; [Ext] says how a state may grow inside
   compile_expr.  compile_expr is specified by a contract ([pre], [post], [rec_spec]) proved
   by induction on the fuel: a destination is an accumulator ([Acc]) that receives gates
   controlled by operand qubits ([Gates]), each step xoring one value into it ([xored]).
   Uncomputation rests on one lemma, replay_restores: the reverse of the gates that target a
   set U, played after the gate list, resets U and leaves the other qubits alone, provided
   no control from outside U changes in between ([sc], which follows from the invariant's
   [wp]).  It serves the inline uncompute between statements ([BInv]) and the final
   uncompute_all, whose closure is shown to reach its fixpoint.
   Step numbers in comments ("2.2 of compile", "compile_expr step 3") are those of the
   comments in qlasskit/compiler/internalcompiler.py. *)
From Coq Require Import List Bool NArith Arith Lia.
From QV Require Import Bits Bexp BexpTT Circ Compiled M_Compiler.
Import ListNotations.

Lemma mem_nat_false q l : mem_nat q l = false <-> ~ In q l.
Proof.
  split.
  - intros H Hin. apply mem_nat_in in Hin. congruence.
  - intros H. destruct (mem_nat q l) eqn:E; [|reflexivity]. apply mem_nat_in in E. contradiction.
Qed.

Lemma mem_nat_or l a b : (forall q, In q l <-> In q a \/ In q b) -> forall q, mem_nat q l = mem_nat q a || mem_nat q b.
Proof.
  intros H q. destruct (mem_nat q a || mem_nat q b) eqn:E.
  - apply mem_nat_in, H. apply orb_true_iff in E as [E|E]; apply mem_nat_in in E; auto.
  - apply orb_false_iff in E as [Ea Eb]. apply mem_nat_false in Ea, Eb. apply mem_nat_false. rewrite H. tauto.
Qed.

Lemma Forall_snoc {A} (P : A -> Prop) l x : Forall P l -> P x -> Forall P (l ++ [x]).
Proof. intros Hl Hx. apply Forall_app. split; [exact Hl|]. constructor; [exact Hx|constructor]. Qed.

Lemma Forall2_in_r {A B} (R : A -> B -> Prop) l m b :
  Forall2 R l m -> In b m -> exists a, In a l /\ R a b.
Proof.
  induction 1 as [|a0 b0 l m H _ IH]; intros Hin; [destruct Hin|].
  destruct Hin as [<-|Hin]; [exists a0; split; [now left|exact H]|].
  destruct (IH Hin) as (a & Ha & Hr). exists a. split; [now right|exact Hr].
Qed.

Lemma forallb_Forall2 {A B} (f : B -> bool) (g : A -> bool) l m :
  Forall2 (fun a b => f b = g a) l m -> forallb f m = forallb g l.
Proof. induction 1 as [|a b l m H _ IH]; cbn [forallb]; [reflexivity|now rewrite H, IH]. Qed.

Lemma forallb_same_set (f : nat -> bool) l m : (forall x, In x l <-> In x m) -> forallb f l = forallb f m.
Proof.
  intros H. destruct (forallb f m) eqn:E.
  - rewrite forallb_forall in *. intros x Hx. apply E. now apply H.
  - destruct (forallb f l) eqn:E'; [|reflexivity]. rewrite forallb_forall in E'.
    assert (forallb f m = true) by (apply forallb_forall; intros x Hx; apply E'; now apply H). congruence.
Qed.

Lemma filter_rev {A} (f : A -> bool) l : filter f (rev l) = rev (filter f l).
Proof.
  induction l as [|x l IH]; [reflexivity|]. cbn [rev filter]. rewrite filter_app, IH. cbn [filter].
  destruct (f x); cbn [rev]; [reflexivity|now rewrite app_nil_r].
Qed.

Lemma filter_two {A} (h f g : A -> bool) l : (forall x, h x = g x && f x) -> filter h l = filter f (filter g l).
Proof.
  intros E. induction l as [|x l IH]; [reflexivity|]. cbn [filter]. rewrite E.
  destruct (g x); cbn [andb filter]; [destruct (f x); now rewrite IH|exact IH].
Qed.

Lemma filter_none {A} (f : A -> bool) l : (forall x, In x l -> f x = false) -> filter f l = [].
Proof.
  induction l as [|x l IH]; intros H; [reflexivity|]. cbn [filter]. rewrite (H x (or_introl eq_refl)).
  apply IH. intros y Hy. apply H. now right.
Qed.

Lemma fold_left_inv {A X} (Q : A -> Prop) (f : A -> X -> A) xs :
  (forall a x, In x xs -> Q a -> Q (f a x)) -> forall a, Q a -> Q (fold_left f xs a).
Proof.
  induction xs as [|x xs IH]; intros Hf a Ha; [exact Ha|]. cbn [fold_left].
  apply IH; [intros a' x' Hx'; apply Hf; now right|]. apply Hf; [now left|exact Ha].
Qed.

Lemma fold_left_fix {X} (f : list nat -> X -> list nat) (C : X -> list nat -> Prop) xs :
  (forall s x, length s <= length (f s x)) ->
  (forall s x, length (f s x) = length s -> f s x = s /\ C x s) ->
  forall s, length s <= length (fold_left f xs s) /\
    (length (fold_left f xs s) = length s -> fold_left f xs s = s /\ forall x, In x xs -> C x s).
Proof.
  intros Hl Hfix. induction xs as [|x xs IH]; intros s; cbn [fold_left].
  - split; [lia|]. intros _. split; [reflexivity|intros x []].
  - destruct (IH (f s x)) as [A1 A2]. pose proof (Hl s x). split; [lia|]. intros E.
    destruct (Hfix s x) as [B1 B2]; [lia|]. rewrite B1 in *. destruct (A2 E) as [D1 D2]. split; [exact D1|].
    intros y [<-|Hy]; [exact B2|now apply D2].
Qed.

Lemma fold_bind_err {A B} (f : A -> B -> res A) l c :
  fold_left (fun r x => let* s := r in f s x) l (Err c) = Err c.
Proof. induction l as [|x l IH]; [reflexivity|exact IH]. Qed.

Inductive sublist {A} : list A -> list A -> Prop :=
| sub_nil : sublist [] []
| sub_skip x l m : sublist l m -> sublist l (x :: m)
| sub_keep x l m : sublist l m -> sublist (x :: l) (x :: m).

Lemma sublist_refl {A} (l : list A) : sublist l l.
Proof. induction l as [|x l IH]; [apply sub_nil|now apply sub_keep]. Qed.

Lemma sublist_In {A} (l m : list A) x : sublist l m -> In x l -> In x m.
Proof. induction 1 as [|y l m _ IH|y l m _ IH]; intros H; [exact H|right; now apply IH|destruct H as [->|H]; [now left|right; now apply IH]]. Qed.

Lemma dedup_spec l : NoDup (dedup l) /\ forall x, In x (dedup l) <-> In x l.
Proof.
  induction l as [|a l [IH1 IH2]]; [split; [constructor|reflexivity]|]. cbn [dedup].
  destruct (mem_nat a l) eqn:E.
  - apply mem_nat_in in E. split; [exact IH1|]. intros x. rewrite IH2. split; [now right|intros [<-|H]; assumption].
  - apply mem_nat_false in E. split; [constructor; [now rewrite IH2|exact IH1]|]. intros x. cbn [In]. now rewrite IH2.
Qed.

Lemma NoDup_bounded_length nq (l : list nat) : NoDup l -> (forall x, In x l -> x < nq) -> length l <= nq.
Proof.
  intros Hn Hb. rewrite <- (seq_length nq 0). apply NoDup_incl_length; [exact Hn|].
  intros x Hx. apply in_seq. specialize (Hb x Hx). lia.
Qed.

(* the comparison of argument lists inside ceqb *)
Definition ceqb_list : list bexp -> list bexp -> bool :=
  fix go l m := match l, m with
                | [], [] => true
                | x :: l', y :: m' => ceqb x y && go l' m'
                | _, _ => false
                end.

Lemma ceqb_list_eq l : Forall (fun x => forall y, ceqb x y = true -> x = y) l ->
  forall m, ceqb_list l m = true -> l = m.
Proof.
  induction 1 as [|x r Hx _ IHr]; intros [|y m] H; try discriminate H; [reflexivity|].
  apply andb_true_iff in H as [H1 H2]. f_equal; [now apply Hx|now apply IHr].
Qed.

Lemma ceqb_list_refl l : Forall (fun x => ceqb x x = true) l -> ceqb_list l l = true.
Proof. induction 1 as [|x r Hx _ IHr]; [reflexivity|]. cbn [ceqb_list]. now rewrite Hx, IHr. Qed.

Lemma ceqb_eq : forall a b, ceqb a b = true -> a = b.
Proof.
  intros a. induction a as [x|i|a IH|l IH|l IH|l IH|c t e IHc IHt IHe|a1 a2 IH1 IH2] using bexp_ind2;
    intros b Hab; destruct b as [y|j|b|m|m|m|c' t' e'|b1 b2]; cbn [ceqb] in Hab; try discriminate Hab.
  4-6: f_equal; exact (ceqb_list_eq l IH m Hab).  (* And, Or, Xor *)
  - apply Bool.eqb_prop in Hab. now subst.
  - apply Nat.eqb_eq in Hab. now subst.
  - f_equal. now apply IH.
  - apply andb_true_iff in Hab as [Hab H3]. apply andb_true_iff in Hab as [H1 H2].
    f_equal; [now apply IHc|now apply IHt|now apply IHe].
  - apply andb_true_iff in Hab as [H1 H2]. f_equal; [now apply IH1|now apply IH2].
Qed.

Lemma ceqb_refl : forall a, ceqb a a = true.
Proof.
  induction a as [x|i|a IH|l IH|l IH|l IH|c t e IHc IHt IHe|a1 a2 IH1 IH2] using bexp_ind2; cbn [ceqb].
  4-6: exact (ceqb_list_refl l IH).  (* And, Or, Xor *)
  - now destruct x.
  - apply Nat.eqb_refl.
  - exact IH.
  - now rewrite IHc, IHt, IHe.
  - now rewrite IH1, IH2.
Qed.

Lemma ceqb_neq a b : a <> b -> ceqb a b = false.
Proof. intros H. destruct (ceqb a b) eqn:E; [|reflexivity]. apply ceqb_eq in E. contradiction. Qed.

Lemma sadd_in q l x : In x (sadd q l) <-> x = q \/ In x l.
Proof.
  unfold sadd. destruct (mem_nat q l) eqn:E.
  - apply mem_nat_in in E. split; [auto|]. intros [->|H]; assumption.
  - rewrite in_app_iff. cbn. split; [intros [H|[H|[]]]; auto|intros [H|H]; auto].
Qed.

Lemma srem_in q l x : In x (srem q l) <-> In x l /\ x <> q.
Proof.
  unfold srem. rewrite filter_In. split.
  - intros [H1 H2]. split; [exact H1|]. intros ->. now rewrite Nat.eqb_refl in H2.
  - intros [H1 H2]. split; [exact H1|]. apply negb_true_iff. now apply Nat.eqb_neq.
Qed.

Lemma sdiff_in a b x : In x (sdiff a b) <-> In x a /\ ~ In x b.
Proof.
  unfold sdiff. rewrite filter_In. split.
  - intros [H1 H2]. split; [exact H1|]. apply negb_true_iff in H2. now apply mem_nat_false.
  - intros [H1 H2]. split; [exact H1|]. apply negb_true_iff. now apply mem_nat_false.
Qed.

Lemma fold_sadd_in (f : cgate -> nat) R : forall u q,
  In q (fold_left (fun u g => sadd (f g) u) R u) <-> In q u \/ exists g, In g R /\ f g = q.
Proof.
  induction R as [|g R IH]; intros u q; cbn [fold_left].
  - split; [auto|]. intros [H|(g & [] & _)]; exact H.
  - rewrite IH, sadd_in. split.
    + intros [[->|H]|(g0 & Hg & E)]; [right; exists g; split; [now left|reflexivity]|now left|right; exists g0; split; [now right|exact E]].
    + intros [H|(g0 & [<-|Hg] & E)]; [left; now right|left; now left|right; now exists g0].
Qed.

Lemma fold_sadd_nat l : forall u q, In q (fold_left (fun f x => sadd x f) l u) <-> In q u \/ In q l.
Proof.
  induction l as [|x l IH]; intros u q; cbn [fold_left]; [cbn; tauto|].
  rewrite IH, sadd_in. cbn [In]. split; [intros [[->|H]|H]; auto|intros [H|[->|H]]; auto].
Qed.

Lemma sdiff_nil a : sdiff a [] = a.
Proof. unfold sdiff. induction a as [|x a IH]; [reflexivity|]. cbn [filter mem_nat negb]. now rewrite IH. Qed.

Lemma sdiff_incl a b : (forall x, In x a -> In x b) -> sdiff a b = [].
Proof. intros H. apply filter_none. intros x Hx. apply negb_false_iff, mem_nat_in, H, Hx. Qed.

Lemma nodupb_NoDup l : nodupb l = true -> NoDup l.
Proof.
  induction l as [|x r IH]; cbn [nodupb]; intros H; [constructor|].
  apply andb_true_iff in H as [H1 H2]. constructor; [|now apply IH].
  apply negb_true_iff in H1. now apply mem_nat_false.
Qed.

Lemma qname_eqb_eq a b : qname_eqb a b = true <-> a = b.
Proof.
  destruct a, b; cbn; try (split; [discriminate|discriminate]); try (split; reflexivity);
    rewrite Nat.eqb_eq; split; intros H; [now subst|now injection H|now subst|now injection H].
Qed.

Lemma qm_get_in m k q : qm_get m k = Some q -> In (k, q) m.
Proof.
  induction m as [|[k' v] r IH]; cbn [qm_get]; [discriminate|].
  destruct (qname_eqb k k') eqn:E.
  - apply qname_eqb_eq in E. subst. intros H. injection H as ->. now left.
  - intros H. right. now apply IH.
Qed.

Lemma qc_get_ok st k q : qc_get st k = Ok q -> qm_get (st_qmap st) k = Some q.
Proof. unfold qc_get. destruct (qm_get (st_qmap st) k); [|discriminate]. intros H. injection H as ->. reflexivity. Qed.

Lemma qm_set_in m k v k' q : In (k', q) (qm_set m k v) -> (k' = k /\ q = v) \/ In (k', q) m.
Proof.
  induction m as [|[k0 v0] r IH]; cbn [qm_set].
  - intros [H|[]]. injection H as <- <-. now left.
  - destruct (qname_eqb k k0) eqn:E.
    + intros [H|H]; [injection H as <- <-; now left|right; now right].
    + intros [H|H]; [right; now left|]. destruct (IH H) as [?|?]; [now left|right; now right].
Qed.

Lemma qm_del_in m k k' q : In (k', q) (qm_del m k) -> In (k', q) m.
Proof. unfold qm_del. rewrite filter_In. tauto. Qed.

Lemma cache_get_in c e q : cache_get c e = Some q -> In (e, q) c.
Proof.
  induction c as [|[e' v] r IH]; cbn [cache_get]; [discriminate|].
  destruct (ceqb e e') eqn:E.
  - apply ceqb_eq in E. subst. intros H. injection H as ->. now left.
  - intros H. right. now apply IH.
Qed.

Lemma cache_get_none c e : cache_get c e = None -> forall q, ~ In (e, q) c.
Proof.
  induction c as [|[e' v] r IH]; cbn [cache_get]; intros H q; [intros []|].
  destruct (ceqb e e') eqn:E; [discriminate|].
  intros [Hin|Hin]; [injection Hin as -> ->; now rewrite ceqb_refl in E|now apply (IH H q)].
Qed.

Lemma cache_remove_in qs c e q : In (e, q) (cache_remove qs c) <-> In (e, q) c /\ ~ In q qs.
Proof.
  unfold cache_remove. rewrite filter_In. cbn [snd]. split.
  - intros [H1 H2]. split; [exact H1|]. apply negb_true_iff in H2. now apply mem_nat_false.
  - intros [H1 H2]. split; [exact H1|]. apply negb_true_iff. now apply mem_nat_false.
Qed.

Lemma cache_set_in e q c e' q' :
  In (e', q') (cache_set e q c) <-> (e' = e /\ q' = q) \/ (In (e', q') c /\ q' <> q /\ e' <> e).
Proof.
  unfold cache_set. rewrite in_app_iff, filter_In, cache_remove_in. cbn [fst In]. split.
  - intros [[[H1 H2] H3]|[H|[]]].
    + right. split; [exact H1|]. split; [intros ->; apply H2; now left|].
      intros ->. now rewrite ceqb_refl in H3.
    + injection H as <- <-. now left.
  - intros [[-> ->]|(H1 & H2 & H3)]; [right; now left|left].
    split; [split; [exact H1|intros [H|[]]; congruence]|].
    apply negb_true_iff. apply ceqb_neq. congruence.
Qed.

Lemma beval_sneg env e : beval env (sneg e) = negb (beval env e).
Proof.
  destruct e; cbn [sneg]; try reflexivity.
  - now destruct b.
  - rewrite beval_not. now rewrite negb_involutive.
Qed.

Lemma beval_flat_and env : forall e, forallb (beval env) (flat_and e) = beval env e.
Proof.
  induction e as [x|i|a IH|l IH|l IH|l IH|c t e IHc IHt IHe|a1 a2 IH1 IH2] using bexp_ind2;
    cbn [flat_and forallb]; try apply andb_true_r.
  rewrite beval_and. induction IH as [|x r Hx _ IHr]; cbn [flat_map forallb]; [reflexivity|].
  now rewrite forallb_app, Hx, IHr.
Qed.

Lemma forallb_flat_and env l :
  forallb (beval env) (flat_map flat_and l) = forallb (beval env) l.
Proof.
  induction l as [|x r IH]; cbn [flat_map forallb]; [reflexivity|].
  now rewrite forallb_app, beval_flat_and, IH.
Qed.

Lemma bmem_in e l : bmem e l = true -> In e l.
Proof.
  unfold bmem. rewrite existsb_exists. intros (y & Hy & He). apply ceqb_eq in He. now subst.
Qed.

Lemma bsubset_forallb (f : bexp -> bool) a b : bsubset a b = true -> forallb f b = true -> forallb f a = true.
Proof.
  unfold bsubset. rewrite !forallb_forall. intros H Hb x Hx. apply Hb. apply bmem_in. now apply H.
Qed.

Lemma or_valid_sound env l e' : or_valid l e' = true -> beval env e' = beval env (BOr l).
Proof.
  destruct e' as [| |a| | | | |]; try discriminate. destruct a as [| | |m| | | |]; try discriminate.
  cbn [or_valid]. intros H. apply andb_true_iff in H as [H1 H2].
  rewrite beval_not, beval_and, beval_or.
  assert (Hm : forallb (beval env) m = forallb (beval env) (map sneg l)).
  { rewrite <- (forallb_flat_and env m), <- (forallb_flat_and env (map sneg l)).
    destruct (forallb (beval env) (flat_map flat_and (map sneg l))) eqn:Ea.
    - now apply (bsubset_forallb _ _ _ H2).
    - destruct (forallb (beval env) (flat_map flat_and m)) eqn:Eb; [|reflexivity].
      rewrite (bsubset_forallb _ _ _ H1 Eb) in Ea. discriminate. }
  rewrite Hm. clear. induction l as [|x r IH]; cbn [map forallb existsb]; [reflexivity|].
  rewrite beval_sneg, negb_andb, negb_involutive. now rewrite IH.
Qed.

Lemma or_lookup_valid tbl e l e' : or_lookup tbl e l = Some e' -> or_valid l e' = true /\ In e' (map snd tbl).
Proof.
  unfold or_lookup. destruct (find _ tbl) as [p|] eqn:Ef; [|discriminate].
  destruct (or_valid l (snd p)) eqn:Ev; [|discriminate]. intros H. injection H as <-.
  split; [exact Ev|]. apply find_some in Ef as [Hin _]. now apply in_map.
Qed.

Lemma or_lookup_sound env tbl e l e' : or_lookup tbl e l = Some e' ->
  beval env e' = beval env (BOr l) /\ In e' (map snd tbl).
Proof. intros H. apply or_lookup_valid in H as [Hv Hin]. split; [now apply or_valid_sound|exact Hin]. Qed.

Lemma cache_set_evicted e q c : cache_set e q (cache_remove [q] c) = cache_set e q c.
Proof.
  unfold cache_set. do 2 f_equal. unfold cache_remove. induction c as [|x c IH]; [reflexivity|]. cbn [filter].
  destruct (negb (mem_nat (snd x) [q])) eqn:E; cbn [filter]; rewrite ?E, IH; reflexivity.
Qed.

(* a successful bind: its first step succeeded, with a result that is named here *)
Lemma bind_ok {A B} (m : res A) (f : A -> res B) b : (let* a := m in f a) = Ok b -> exists a, m = Ok a /\ f a = Ok b.
Proof. destruct m as [a|c]; [|discriminate]. intros H. now exists a. Qed.
Tactic Notation "bind_ok" hyp(H) "as" simple_intropattern(p) ident(E) :=
  apply bind_ok in H as (p & E & H); cbv beta iota in H.

(* the classical action of a gate: its last qubit is the target, the others control it *)
Definition gstep (g : cgate) (f : nat -> bool) : nat -> bool := fflip f (ctrls g) (tgt g).
Definition grun (gs : list cgate) (f : nat -> bool) : nat -> bool := fold_left (fun f g => gstep g f) gs f.

Lemma grun_app a b f : grun (a ++ b) f = grun b (grun a f).
Proof. unfold grun. apply fold_left_app. Qed.

Lemma grun_cons g r f : grun (g :: r) f = grun r (gstep g f).
Proof. reflexivity. Qed.

Lemma grun_snoc a g f q : grun (a ++ [g]) f q = gstep g (grun a f) q.
Proof. now rewrite grun_app. Qed.

Definition kind_ok (k : gk) (qs : list nat) : Prop :=
  match k with
  | K1 BX => length qs = 1
  | KCX => length qs = 2
  | KMCX m => length qs = S m
  | _ => False
  end.
Definition gate_ok (nq : nat) (g : cgate) : Prop :=
  kind_ok (cg_kind g) (cg_qs g) /\ NoDup (cg_qs g) /\ Forall (fun q => q < nq) (cg_qs g).

Lemma cact_of_ok g : kind_ok (cg_kind g) (cg_qs g) -> cact_of (to_gate g) = CFlip (ctrls g) (tgt g).
Proof.
  unfold cact_of, to_gate, ctrls, tgt. cbn [gkind gqs]. destruct (cg_kind g) as [b| | | | |m|b m| |]; cbn [kind_ok]; try tauto.
  - destruct b; try tauto. intros H. cbn [x_controls]. now rewrite H.
  - intros H. cbn [x_controls]. now rewrite H.
  - intros H. cbn [x_controls]. rewrite H. now rewrite Nat.eqb_refl.
Qed.

Lemma fsim_grun gs : Forall (fun g => kind_ok (cg_kind g) (cg_qs g)) gs ->
  forall f, fsim f (map to_gate gs) = Some (grun gs f).
Proof.
  induction 1 as [|g r Hg _ IH]; intros f; cbn [map fsim]; [reflexivity|].
  rewrite (cact_of_ok g Hg). apply IH.
Qed.

Lemma all_classical_ok gs : Forall (fun g => kind_ok (cg_kind g) (cg_qs g)) gs ->
  all_classical (map to_gate gs) = true.
Proof.
  induction 1 as [|g r Hg _ IH]; cbn [map all_classical forallb]; [reflexivity|].
  rewrite (cact_of_ok g Hg). exact IH.
Qed.

Lemma tgt_in g : cg_qs g <> [] -> In (tgt g) (cg_qs g).
Proof.
  unfold tgt. intros H. destruct (exists_last H) as (l & a & ->). rewrite last_last. apply in_or_app. right. now left.
Qed.

Lemma kind_ok_nonempty k qs : kind_ok k qs -> qs <> [].
Proof. destruct k as [b| | | | |m|b m| |]; cbn; try tauto; try destruct b; try tauto; intros H ->; discriminate. Qed.

Lemma gate_ok_tgt nq g : gate_ok nq g -> tgt g < nq.
Proof.
  intros (Hk & _ & Hf). rewrite Forall_forall in Hf. apply Hf. apply tgt_in. eapply kind_ok_nonempty; eauto.
Qed.

Lemma gate_ok_tgt_ctrls nq g : gate_ok nq g -> ~ In (tgt g) (ctrls g).
Proof.
  intros (Hk & Hn & _). pose proof (kind_ok_nonempty _ _ Hk) as Hne.
  destruct (exists_last Hne) as (l & a & E). unfold tgt, ctrls. rewrite E in *.
  rewrite last_last, removelast_last. apply NoDup_remove_2 in Hn. now rewrite app_nil_r in Hn.
Qed.

Lemma gates_no_self nq gs : Forall (gate_ok nq) gs -> forall g, In g gs -> ~ In (tgt g) (ctrls g).
Proof. intros H g Hg. rewrite Forall_forall in H. exact (gate_ok_tgt_ctrls nq g (H g Hg)). Qed.

Lemma gate_ok_ctrls_lt nq g c : gate_ok nq g -> In c (ctrls g) -> c < nq.
Proof.
  intros (_ & _ & Hf) Hc. rewrite Forall_forall in Hf. apply Hf. unfold ctrls in Hc.
  destruct (cg_qs g) as [|x l] eqn:E; [destruct Hc|].
  assert (Hne : x :: l <> []) by discriminate. destruct (exists_last Hne) as (l' & a & E').
  rewrite E' in *. rewrite removelast_last in Hc. apply in_or_app. now left.
Qed.

Lemma gate_in_app (l new : list cgate) q : (exists g, In g l /\ tgt g = q) -> exists g, In g (l ++ new) /\ tgt g = q.
Proof. intros (g & Hg & Ht). exists g. split; [apply in_or_app; now left|exact Ht]. Qed.

Lemma gate_ok_mono nq nq' g : nq <= nq' -> gate_ok nq g -> gate_ok nq' g.
Proof.
  intros Hle (H1 & H2 & H3). repeat split; auto. eapply Forall_impl; [|exact H3]. intros; cbn in *; lia.
Qed.

Lemma grun_other gs : forall f q, (forall g, In g gs -> tgt g <> q) -> grun gs f q = f q.
Proof.
  induction gs as [|g r IH]; intros f q H; [reflexivity|].
  rewrite grun_cons, IH by (intros g' Hg'; apply H; now right).
  unfold gstep, fflip. destruct (Nat.eqb_spec q (tgt g)) as [->|]; [|reflexivity].
  exfalso. apply (H g); [now left|reflexivity].
Qed.

Lemma grun_ext gs : forall f1 f2, (forall q, f1 q = f2 q) -> forall q, grun gs f1 q = grun gs f2 q.
Proof.
  induction gs as [|g r IH]; intros f1 f2 H q; [apply H|].
  rewrite !grun_cons. apply IH. intros q'.
  unfold gstep, fflip. rewrite H, (forallb_ext_in f1 f2 _ (fun x _ => H x)). now rewrite H.
Qed.

Lemma forallb_upd_other (f : nat -> bool) v t cs : ~ In t cs ->
  forallb (fun q0 => if Nat.eqb q0 t then v else f q0) cs = forallb f cs.
Proof.
  induction cs as [|c cs IH]; intros Hn; [reflexivity|]. cbn [forallb].
  destruct (Nat.eqb_spec c t) as [->|]; [exfalso; apply Hn; now left|].
  rewrite IH; [reflexivity|]. intros Hc. apply Hn. now right.
Qed.

Lemma gstep_twice nq g f q : gate_ok nq g -> gstep g (gstep g f) q = f q.
Proof.
  intros Hok. pose proof (gate_ok_tgt_ctrls _ _ Hok) as Hn. unfold gstep, fflip.
  destruct (Nat.eqb_spec q (tgt g)) as [->|Hq]; [|reflexivity].
  rewrite Nat.eqb_refl. rewrite forallb_upd_other by exact Hn.
  now destruct (f (tgt g)), (forallb f (ctrls g)).
Qed.

Lemma list_nat_eqb_eq l m : list_nat_eqb l m = true -> l = m.
Proof.
  revert m; induction l as [|x l IH]; intros [|y m] H; cbn [list_nat_eqb] in H; try discriminate; [reflexivity|].
  apply andb_true_iff in H as [H1 H2]. apply Nat.eqb_eq in H1. subst. f_equal. now apply IH.
Qed.

Lemma rm_id_cons2 a b r : rm_id (a :: b :: r) = if cancels a b then rm_id r else a :: rm_id (b :: r).
Proof. reflexivity. Qed.

(* remove_identities looks at the gates two by two *)
Lemma rm_id_ind (P : list cgate -> Prop) :
  P [] -> (forall a, P [a]) ->
  (forall a b r, cancels a b = true -> P r -> P (a :: b :: r)) ->
  (forall a b r, cancels a b = false -> P (b :: r) -> P (a :: b :: r)) ->
  forall l, P l.
Proof.
  intros H0 H1 H2 H3 l. assert (H : forall k l, length l <= k -> P l); [|exact (H _ l (le_n _))].
  induction k as [|k IH]; intros [|a [|b r]] Hl; auto; cbn [length] in Hl; [lia|].
  destruct (cancels a b) eqn:E; [apply H2|apply H3]; auto; apply IH; cbn [length]; lia.
Qed.

(* remove_identities preserves the function of the circuit *)
Lemma rm_id_sound nq gs : Forall (gate_ok nq) gs -> forall f q, grun (rm_id gs) f q = grun gs f q.
Proof.
  induction gs as [|a|a b r E IH|a b r E IH] using rm_id_ind; intros Hok f q; try reflexivity;
    rewrite rm_id_cons2, E; inversion Hok as [|? ? Ha Hok1]; subst.
  - inversion Hok1 as [|? ? Hb Hok2]; subst. rewrite IH by exact Hok2.
    unfold cancels in E. apply andb_true_iff in E as [_ E]. apply list_nat_eqb_eq in E.
    rewrite !grun_cons. apply grun_ext. intros q'.
    replace (gstep b (gstep a f) q') with (gstep a (gstep a f) q') by (unfold gstep, ctrls, tgt; now rewrite E).
    symmetry. now apply (gstep_twice nq).
  - now rewrite !grun_cons, IH.
Qed.

(* the gates of G that target a qubit of U: uncomputing U replays them in reverse *)
Definition subU (U : list nat) (G : list cgate) : list cgate := filter (fun g => mem_nat (tgt g) U) G.

Lemma subU_in U G g : In g (subU U G) <-> In g G /\ In (tgt g) U.
Proof. unfold subU. now rewrite filter_In, mem_nat_in. Qed.

Lemma subU_rev U G : subU U (rev G) = rev (subU U G).
Proof. apply filter_rev. Qed.

(* stable controls: a control outside U of a gate targeting U is never targeted afterwards *)
Fixpoint sc (U : list nat) (G : list cgate) : Prop :=
  match G with
  | [] => True
  | g :: B => (In (tgt g) U -> forall c, In c (ctrls g) -> ~ In c U -> forall g', In g' B -> tgt g' <> c) /\ sc U B
  end.

(* writes after reads are confined to F: a qubit that is targeted after having been used as
   a control belongs to F (F will be the uncomputed qubits) *)
Fixpoint wp (F : list nat) (G : list cgate) : Prop :=
  match G with
  | [] => True
  | g :: B => (forall c, In c (ctrls g) -> forall g', In g' B -> tgt g' = c -> In c F) /\ wp F B
  end.

Lemma fflip_other f cs t q : q <> t -> fflip f cs t q = f q.
Proof. intros H. unfold fflip. destruct (Nat.eqb_spec q t); [contradiction|reflexivity]. Qed.
Lemma fflip_tgt f cs t : fflip f cs t t = xorb (f t) (forallb f cs).
Proof. unfold fflip. now rewrite Nat.eqb_refl. Qed.

(* the replay lemma: after G followed by the reverse of its gates on U, the
   qubits of U are back to their initial values and the others are as after G *)
Lemma replay_restores U : forall G, sc U G -> (forall g, In g G -> ~ In (tgt g) (ctrls g)) ->
  forall f q, grun (G ++ rev (subU U G)) f q = if mem_nat q U then f q else grun G f q.
Proof.
  induction G as [|g G IH]; intros Hs Hok f q.
  - cbn. now destruct (mem_nat q U).
  - cbn [sc] in Hs. destruct Hs as [Hg Hs].
    assert (Hok' : forall g0, In g0 G -> ~ In (tgt g0) (ctrls g0)) by (intros g0 H0; apply Hok; now right).
    cbn [subU filter]. fold (subU U G). destruct (mem_nat (tgt g) U) eqn:Et.
    + apply mem_nat_in in Et. cbn [rev]. rewrite app_assoc.
      rewrite grun_snoc, <- app_comm_cons, grun_cons.
      set (f1 := gstep g f). set (h := grun (G ++ rev (subU U G)) f1).
      assert (Hh : forall x, h x = if mem_nat x U then f1 x else grun G f1 x) by (intros x; apply IH; assumption).
      unfold gstep at 1, fflip. destruct (Nat.eqb_spec q (tgt g)) as [->|Hq].
      * assert (E : mem_nat (tgt g) U = true) by now apply mem_nat_in. rewrite E.
        assert (Hc : forallb h (ctrls g) = forallb f (ctrls g)).
        { apply forallb_ext_in. intros c Hcin. rewrite Hh.
          assert (Hct : c <> tgt g) by (intros ->; apply (Hok g (or_introl eq_refl)); exact Hcin).
          destruct (mem_nat c U) eqn:Ec.
          - unfold f1, gstep. now apply fflip_other.
          - apply mem_nat_false in Ec. rewrite grun_other by (intros g' Hg'; now apply (Hg Et c Hcin Ec g' Hg')).
            unfold f1, gstep. now apply fflip_other. }
        rewrite Hc, Hh, E. unfold f1, gstep. rewrite fflip_tgt.
        now destruct (f (tgt g)), (forallb f (ctrls g)).
      * rewrite Hh. destruct (mem_nat q U); [unfold f1, gstep; now apply fflip_other|reflexivity].
    + rewrite <- app_comm_cons, grun_cons, IH by assumption. destruct (mem_nat q U) eqn:Eq; [|reflexivity].
      unfold gstep. apply fflip_other. intros ->. congruence.
Qed.

Lemma wp_mono F F' G : (forall x, In x F -> In x F') -> wp F G -> wp F' G.
Proof.
  intros H. induction G as [|g B IH]; cbn [wp]; [auto|]. intros [H1 H2]. split; [|now apply IH].
  intros c Hc g' Hg' Ht. apply H. now apply (H1 c Hc g' Hg').
Qed.

Lemma wp_all_tgt F R : (forall g, In g R -> In (tgt g) F) -> wp F R.
Proof.
  induction R as [|g B IH]; intros H; cbn [wp]; [exact I|]. split.
  - intros c Hc g' Hg' <-. apply H. now right.
  - apply IH. intros g0 H0. apply H. now right.
Qed.

Lemma wp_app F G : forall R, wp F G -> wp F R ->
  (forall g', In g' R -> In (tgt g') F \/ forall g, In g G -> ~ In (tgt g') (ctrls g)) -> wp F (G ++ R).
Proof.
  induction G as [|g B IH]; intros R HG HR H; [exact HR|].
  cbn [wp app] in *. destruct HG as [H1 H2]. split.
  - intros c Hc g' Hg' Ht. apply in_app_or in Hg' as [Hg'|Hg']; [now apply (H1 c Hc g' Hg')|].
    destruct (H g' Hg') as [Hf|Hn]; [now rewrite <- Ht|]. exfalso. apply (Hn g (or_introl eq_refl)). now rewrite Ht.
  - apply IH; auto. intros g' Hg'. destruct (H g' Hg') as [?|Hn]; [now left|right]. intros g0 H0. apply Hn. now right.
Qed.

Lemma wp_sublist F G' G : sublist G' G -> wp F G -> wp F G'.
Proof.
  induction 1 as [|g l m Hs IH|g l m Hs IH]; cbn [wp]; [auto|intros [_ H]; now apply IH|].
  intros [H1 H2]. split; [|now apply IH]. intros c Hc g' Hg' Ht. apply (H1 c Hc g'); [|exact Ht].
  now apply (sublist_In l m).
Qed.

Lemma rm_id_sublist gs : sublist (rm_id gs) gs.
Proof.
  induction gs as [|a|a b r E IH|a b r E IH] using rm_id_ind; try apply sublist_refl; rewrite rm_id_cons2, E.
  - now apply sub_skip, sub_skip.
  - now apply sub_keep.
Qed.

Lemma rm_id_incl gs : incl (rm_id gs) gs.
Proof. intros x. apply sublist_In, rm_id_sublist. Qed.

Lemma wp_sc F U G : wp F G ->
  (forall g, In g G -> In (tgt g) U -> forall c, In c (ctrls g) -> In c F -> In c U) -> sc U G.
Proof.
  induction G as [|g B IH]; cbn [wp sc]; [auto|]. intros [H1 H2] Hcl. split.
  - intros Ht c Hc Hn g' Hg' E. apply Hn. apply (Hcl g (or_introl eq_refl) Ht c Hc). now apply (H1 c Hc g' Hg').
  - apply IH; [exact H2|]. intros g0 H0. apply Hcl. now right.
Qed.

Definition nopop (o : list oev) : bool :=
  forallb (fun ev => match ev with OPop _ => false | _ => true end) o.
Lemma nopop_cons_pop q o : nopop (OPop q :: o) = false.
Proof. reflexivity. Qed.
Lemma nopop_tl o : nopop o = true -> nopop (tl o) = true.
Proof. destruct o as [|a r]; [auto|]. cbn [nopop forallb tl]. intros H. apply andb_true_iff in H. tauto. Qed.

Definition compound (e : bexp) : bool :=
  match e with BNot _ | BAnd _ | BOr _ | BXor _ => true | _ => false end.
Definition named (k : qname) : Prop := match k with NAnc _ => False | _ => True end.
Definition is_or (e : bexp) : bool := match e with BOr _ => true | _ => false end.
Definition nary_or (e : bexp) : bool := match e with BOr l => Nat.ltb 2 (length l) | _ => false end.

(* the expressions the for-all theorem covers (see Prop_C02_model.v) *)
Fixpoint ok_expr (e : bexp) : bool :=
  match e with
  | BSym _ => true
  | BNot a => ok_expr a
  | BAnd l => forallb ok_expr l
  | BOr l => if Nat.ltb 2 (length l) then true
             else match l with
                  | [e1; e2] => ok_expr e1 && ok_expr e2
                  | _ => false
                  end
  | BXor l => forallb ok_expr l && negb (match l with [] => true | _ => false end)
  | _ => false
  end.
Definition tbl_ok (tbl : list (bexp * bexp)) : bool := forallb (fun p => ok_expr (snd p)) tbl.

(* the qubit has never been used as a control *)
Definition nc (st : cst) (q : nat) : Prop := forall g, In g (st_gates st) -> ~ In q (ctrls g).

(* the state after a gate constructor call followed by append, and after add_ancilla *)
Definition add_gate (g : cgate) (st : cst) : cst :=
  set_comp (st_comp st ++ [g]) (set_gates (st_gates st ++ [g]) (set_next (S (st_next st)) st)).
Definition new_anc (st : cst) : cst :=
  set_anc (sadd (st_nq st) (st_anc st))
    (set_nq (S (st_nq st)) (set_qmap (qm_set (st_qmap st) (NAnc (length (st_anc st))) (st_nq st)) st)).

(* sts reduces the projections of updated states, in the goal and in every hypothesis *)
Ltac sts := cbn [st_gates st_comp st_nq st_qmap st_anc st_free st_res st_marked st_cache st_next st_orc
                 set_gates set_comp set_nq set_qmap set_anc set_free set_res set_marked set_cache set_next set_orc
                 upd_cache add_gate new_anc] in *.

Section WithInput.
  Variable n : nat.                       (* the arguments sit on qubits 0 .. n-1 *)
  Variable inp : nat -> bool.             (* one classical input *)
  Variable env : nat -> bool.             (* the value of every symbol on that input *)
  Variable tbl : list (bexp * bexp).      (* sympy's rewrites of the n-ary Ors *)
  Hypothesis Htbl : tbl_ok tbl = true.
  Variable isret : nat -> bool.           (* the symbol is a return bit *)
  Variable is_temp : nat -> bool.         (* the symbol is a "__" temporary *)

  (* the initial state, and the state after the gates emitted so far *)
  Definition b0 (q : nat) : bool := if Nat.ltb q n then inp q else false.
  Definition V (st : cst) : nat -> bool := grun (st_gates st) b0.

  Lemma b0_false q : n <= q -> b0 q = false.
  Proof. intros H. unfold b0. destruct (Nat.ltb_spec q n); [lia|reflexivity]. Qed.

  (* what holds of the compiler's state between any two of its steps: the named qubits
     (i_sym, i_true, i_false) and the cache entries (i_cache) hold the values they stand
     for; ancillas, cache and marks are consistent with the gates that computed them *)
  Record Inv (st : cst) : Prop := {
    i_n : n <= st_nq st;
    i_gates : Forall (gate_ok (st_nq st)) (st_gates st);
    i_comp : Forall (gate_ok (st_nq st)) (st_comp st);
    i_tgt : Forall (fun g => n <= tgt g) (st_gates st);
    i_ctgt : Forall (fun g => n <= tgt g) (st_comp st);
    i_qmap_lt : forall k q, In (k, q) (st_qmap st) -> q < st_nq st;
    i_sym : forall s q, In (NSym s, q) (st_qmap st) -> V st q = env s;
    i_true : forall q, In (NTrue, q) (st_qmap st) -> V st q = true;
    i_false : forall q, In (NFalse, q) (st_qmap st) -> V st q = false;
    i_named : forall k q, In (k, q) (st_qmap st) -> named k -> ~ In q (st_anc st);
    i_cache_lt : forall e q, In (e, q) (st_cache st) -> q < st_nq st;
    i_cache : forall e q, In (e, q) (st_cache st) -> V st q = beval env e;
    i_cache_inj : forall e1 e2 q, In (e1, q) (st_cache st) -> In (e2, q) (st_cache st) -> e1 = e2;
    i_cache_anc : forall e q, In (e, q) (st_cache st) -> compound e = true -> In q (st_anc st);
    i_cache_gate : forall e q, In (e, q) (st_cache st) -> In q (st_anc st) ->
              exists g, In g (st_comp st) /\ tgt g = q;
    i_anc_lt : forall q, In q (st_anc st) -> q < st_nq st;
    i_marked : forall q, In q (st_marked st) -> In q (st_anc st) /\ exists g, In g (st_comp st) /\ tgt g = q;
    i_zero : forall q, st_nq st <= q -> V st q = false;
    i_nopop : nopop (st_orc st) = true;
    (* bookkeeping of the inline uncompute (used for C03) *)
    i_free_anc : forall q, In q (st_free st) -> In q (st_anc st);
    i_free_cache : forall e q, In (e, q) (st_cache st) -> ~ In q (st_free st);
    i_free_marked : forall q, In q (st_marked st) -> ~ In q (st_free st);
    i_compf : st_comp st = filter (fun g => negb (mem_nat (tgt g) (st_free st))) (st_gates st);
    i_wp : wp (st_free st) (st_gates st);
    i_alive : forall g, In g (st_gates st) -> In (tgt g) (st_anc st) -> ~ In (tgt g) (st_free st) ->
              forall c, In c (ctrls g) -> ~ In c (st_free st);
    i_zfree : forall q, In q (st_free st) -> V st q = false }.

  (* d is private: not an argument, and no name and no cache entry refers to it *)
  Definition Priv (st : cst) (d : nat) : Prop :=
    (n <= d /\ d < st_nq st) /\ (forall k, named k -> ~ In (k, d) (st_qmap st)) /\ (forall e, ~ In (e, d) (st_cache st)).

  (* how a state evolves inside compile_expr; [d] is the only old qubit that may change *)
  Record Ext (d : option nat) (st st' : cst) : Prop := {
    x_nq : st_nq st <= st_nq st';
    x_frame : forall q, q < st_nq st -> d <> Some q -> V st' q = V st q;
    x_qmap : forall k q, In (k, q) (st_qmap st') -> In (k, q) (st_qmap st) \/ st_nq st <= q;
    x_cache : forall e q, In (e, q) (st_cache st') -> In (e, q) (st_cache st) \/ st_nq st <= q;
    x_comp : exists new, st_comp st' = st_comp st ++ new;
    x_anc_sub : forall q, In q (st_anc st) -> In q (st_anc st');
    x_anc_new : forall q, In q (st_anc st') -> In q (st_anc st) \/ st_nq st <= q;
    x_marked_lt : forall q, In q (st_marked st') -> In q (st_marked st) \/ q < st_nq st';
    x_marked_sub : forall q, In q (st_marked st) -> In q (st_marked st');
    x_free : st_free st' = st_free st }.

  Lemma Ext_refl d st : Ext d st st.
  Proof. constructor; auto. exists []. now rewrite app_nil_r. Qed.

  Lemma Ext_weaken d st st' : Ext None st st' -> Ext d st st'.
  Proof. intros [H1 H2 H3 H4 H5 H6 H7 H8 H9 H10]. constructor; auto. intros q Hq _. apply H2; [exact Hq|discriminate]. Qed.

  Lemma Ext_trans' d d' st1 st2 st3 : Ext d st1 st2 -> Ext d' st2 st3 ->
    (forall q, d' = Some q -> d = Some q \/ st_nq st1 <= q) -> Ext d st1 st3.
  Proof.
    intros [A1 A2 A3 A4 A5 A6 A7 A8 A9 A10] [B1 B2 B3 B4 B5 B6 B7 B8 B9 B10] Hd. constructor.
    - lia.
    - intros q Hq Hne. rewrite B2; [now apply A2|lia|]. intros E. destruct (Hd q E) as [?|?]; [contradiction|lia].
    - intros k q H. destruct (B3 k q H) as [H'|H']; [|right; lia]. apply A3, H'.
    - intros e q H. destruct (B4 e q H) as [H'|H']; [|right; lia]. apply A4, H'.
    - destruct A5 as [n1 E1], B5 as [n2 E2]. exists (n1 ++ n2). now rewrite E2, E1, app_assoc.
    - auto.
    - intros q H. destruct (B7 q H) as [H'|H']; [|right; lia]. apply A7, H'.
    - intros q H. destruct (B8 q H) as [H'|H']; [|now right]. destruct (A8 q H') as [?|?]; [now left|right; lia].
    - auto.
    - congruence.
  Qed.

  Lemma Ext_trans d st1 st2 st3 : Ext d st1 st2 -> Ext d st2 st3 -> Ext d st1 st3.
  Proof. intros A B. apply (Ext_trans' d d st1 st2 st3 A B). intros q E. now left. Qed.

  (* a step that changes d is allowed when d is the destination or a new qubit *)
  Lemma Ext_into dest d st1 st2 st3 : Ext dest st1 st2 -> Ext (Some d) st2 st3 ->
    dest = Some d \/ st_nq st1 <= d -> Ext dest st1 st3.
  Proof. intros A B Hd. apply (Ext_trans' dest (Some d) st1 st2 st3 A B). intros q Hq. injection Hq as <-. exact Hd. Qed.

  Lemma Priv_ext d d' st st' : Ext d' st st' -> Priv st d -> Priv st' d.
  Proof.
    intros X (H1 & H2 & H3). pose proof (x_nq _ _ _ X). split; [lia|split].
    - intros k Hk Hin. destruct (x_qmap _ _ _ X k d Hin) as [H'|H']; [now apply (H2 k)|lia].
    - intros e Hin. destruct (x_cache _ _ _ X e d Hin) as [H'|H']; [now apply (H3 e)|lia].
  Qed.

  Lemma V_same st st' : st_gates st' = st_gates st -> forall q, V st' q = V st q.
  Proof. intros E q. unfold V. now rewrite E. Qed.

  Lemma append_new_inv k qs st st' : append_new k qs st = Ok st' ->
    st' = add_gate (mkcg (st_next st) k qs) st /\ NoDup qs /\ Forall (fun q => q < st_nq st) qs.
  Proof.
    unfold append_new, append_obj. sts. cbn [cg_qs].
    destruct (forallb (fun x => Nat.ltb x (st_nq st)) qs && nodupb qs) eqn:E; [|discriminate].
    intros H. injection H as <-. apply andb_true_iff in E as [E1 E2]. split; [reflexivity|].
    split; [now apply nodupb_NoDup|]. apply Forall_forall. rewrite forallb_forall in E1.
    intros x Hx. apply Nat.ltb_lt. now apply E1.
  Qed.

  Lemma V_add_gate g st q : V (add_gate g st) q = fflip (V st) (ctrls g) (tgt g) q.
  Proof. apply grun_snoc. Qed.

  (* d can serve as an accumulator: no name and no cache entry refers to it, it has
     never been a control and it has not been uncomputed *)
  Definition Acc (st : cst) (d : nat) : Prop := Priv st d /\ nc st d /\ ~ In d (st_free st).

  Lemma Inv_gate st g : Inv st -> Acc st (tgt g) -> gate_ok (st_nq st) g ->
    (forall c, In c (ctrls g) -> ~ In c (st_free st)) -> Inv (add_gate g st).
  Proof.
    intros I0 (((Hn & _) & Hq & Hc) & Hnc & Hnf) Hg Hcf.
    assert (HV : forall q, q <> tgt g -> V (add_gate g st) q = V st q).
    { intros q Hne. rewrite V_add_gate. now apply fflip_other. }
    destruct I0. constructor; sts; try assumption.
    1-4: now apply Forall_snoc.  (* i_gates, i_comp, i_tgt, i_ctgt *)
    - (* i_sym *) intros s q Hin. rewrite HV; [auto|]. intros ->. now apply (Hq (NSym s) I).
    - (* i_true *) intros q Hin. rewrite HV; [auto|]. intros ->. now apply (Hq NTrue I).
    - (* i_false *) intros q Hin. rewrite HV; [auto|]. intros ->. now apply (Hq NFalse I).
    - (* i_cache *) intros e q Hin. rewrite HV; [auto|]. intros ->. now apply (Hc e).
    - (* i_cache_gate *) intros e q Hin Ha. exact (gate_in_app _ [g] q (i_cache_gate0 e q Hin Ha)).
    - (* i_marked *) intros q Hin. destruct (i_marked0 q Hin) as [Ha Hg0]. exact (conj Ha (gate_in_app _ [g] q Hg0)).
    - (* i_zero *) intros q Hle. rewrite HV; [auto|]. pose proof (gate_ok_tgt _ _ Hg). lia.
    - (* i_compf *) rewrite filter_app, <- i_compf0. cbn [filter]. apply mem_nat_false in Hnf. now rewrite Hnf.
    - (* i_wp *) apply wp_app; [assumption|cbn; split; [intros c _ g' []|exact I]|].
      intros g' [<-|[]]. right. exact Hnc.
    - (* i_alive *) intros g0 H0 Ha Hf c Hcin. apply in_app_or in H0 as [H0|[<-|[]]]; [eauto|now apply Hcf].
    - (* i_zfree *) intros q Hin. rewrite HV; [auto|]. intros ->. contradiction.
  Qed.

  Lemma Ext_gate st g : Ext (Some (tgt g)) st (add_gate g st).
  Proof.
    constructor; sts; auto.
    - (* x_frame *) intros q Hq Hne. rewrite V_add_gate. apply fflip_other. intros ->. now apply Hne.
    - (* x_comp *) now exists [g].
  Qed.

  (* ExpQMap.__setitem__ *)
  Lemma Inv_cache_set st e q :
    Inv st -> q < st_nq st -> V st q = beval env e ->
    (compound e = true -> In q (st_anc st)) ->
    (In q (st_anc st) -> exists g, In g (st_comp st) /\ tgt g = q) -> ~ In q (st_free st) ->
    Inv (upd_cache (cache_set e q) st).
  Proof.
    intros I Hq Hv Ha Hg Hnf. destruct I. constructor; sts; try assumption.
    - (* i_cache_lt *) intros e' q' H. apply cache_set_in in H as [[-> ->]|(H & _)]; [exact Hq|exact (i_cache_lt0 e' q' H)].
    - (* i_cache *) intros e' q' H. change (V (upd_cache (cache_set e q) st) q') with (V st q').
      apply cache_set_in in H as [[-> ->]|(H & _)]; [exact Hv|exact (i_cache0 e' q' H)].
    - (* i_cache_inj *) intros e1 e2 q' H1 H2. apply cache_set_in in H1. apply cache_set_in in H2.
      destruct H1 as [[-> Hq1]|(H1 & N1 & M1)], H2 as [[-> Hq2]|(H2 & N2 & M2)];
        [reflexivity|contradiction|contradiction|exact (i_cache_inj0 e1 e2 q' H1 H2)].
    - (* i_cache_anc *) intros e' q' H Hc. apply cache_set_in in H as [[-> ->]|(H & _)]; [exact (Ha Hc)|exact (i_cache_anc0 e' q' H Hc)].
    - (* i_cache_gate *) intros e' q' H Hin. apply cache_set_in in H as [[-> ->]|(H & _)]; [exact (Hg Hin)|exact (i_cache_gate0 e' q' H Hin)].
    - (* i_free_cache *) intros e' q' H. apply cache_set_in in H as [[-> ->]|(H & _)]; [exact Hnf|exact (i_free_cache0 e' q' H)].
  Qed.

  Lemma Inv_cache_incl st c : Inv st -> (forall e q, In (e, q) c -> In (e, q) (st_cache st)) -> Inv (set_cache c st).
  Proof. intros I H. destruct I. constructor; sts; eauto. Qed.

  Lemma Inv_cache_remove st qs : Inv st -> Inv (upd_cache (cache_remove qs) st).
  Proof. intros I. apply Inv_cache_incl; [exact I|]. intros e q Hin. now apply cache_remove_in in Hin. Qed.

  Lemma Ext_then_cache_set x st st5 e d : Ext x st st5 -> st_nq st <= d \/ In (e, d) (st_cache st) ->
    Ext x st (upd_cache (cache_set e d) st5).
  Proof.
    intros [A1 A2 A3 A4 A5 A6 A7 A8 A9 A10] Hd. constructor; sts; auto.
    intros e' q' H. apply cache_set_in in H as [[-> ->]|(H & _)]; [|now apply A4]. destruct Hd; [now right|now left].
  Qed.

  Lemma Ext_cache_set d st e q : st_nq st <= q \/ In (e, q) (st_cache st) -> Ext d st (upd_cache (cache_set e q) st).
  Proof. apply Ext_then_cache_set, Ext_refl. Qed.

  (* when nothing is recycled get_free_ancilla is add_ancilla *)
  Lemma get_free_ancilla_new st q st' : Inv st -> get_free_ancilla st = Ok (q, st') ->
    q = st_nq st /\ st' = new_anc st.
  Proof.
    intros I. unfold get_free_ancilla. destruct (sdiff (st_free st) (st_res st)) as [|a l].
    - unfold add_ancilla, add_qubit. sts. intros H. injection H as <- <-. split; reflexivity.
    - pose proof (i_nopop st I) as Hn. destruct (st_orc st) as [|[p|o] r]; try discriminate.
  Qed.

  Lemma Inv_new_anc st : Inv st -> Inv (new_anc st).
  Proof.
    intros I. destruct I. constructor; sts; try assumption.
    - (* i_n *) exact (le_S _ _ i_n0).
    - (* i_gates *) eapply Forall_impl; [|exact i_gates0]. intros g. apply gate_ok_mono. lia.
    - (* i_comp *) eapply Forall_impl; [|exact i_comp0]. intros g. apply gate_ok_mono. lia.
    - (* i_qmap_lt *) intros k q H. apply qm_set_in in H as [[-> ->]|H]; [lia|]. apply i_qmap_lt0 in H. lia.
    - (* i_sym *) intros s q H. apply qm_set_in in H as [[E _]|H]; [discriminate|]. now apply i_sym0.
    - (* i_true *) intros q H. apply qm_set_in in H as [[E _]|H]; [discriminate|]. now apply i_true0.
    - (* i_false *) intros q H. apply qm_set_in in H as [[E _]|H]; [discriminate|]. now apply i_false0.
    - (* i_named *) intros k q H Hn. apply qm_set_in in H as [[-> _]|H]; [destruct Hn|].
      intros Hin. apply sadd_in in Hin as [->|Hin]; [apply i_qmap_lt0 in H; lia|]. now apply (i_named0 k q).
    - (* i_cache_lt *) intros e q H. apply i_cache_lt0 in H. lia.
    - (* i_cache_anc *) intros e q H Hc. apply sadd_in. right. eauto.
    - (* i_cache_gate *) intros e q H Hin. apply sadd_in in Hin as [->|Hin]; [apply i_cache_lt0 in H; lia|eauto].
    - (* i_anc_lt *) intros q H. apply sadd_in in H as [->|H]; [lia|]. apply i_anc_lt0 in H. lia.
    - (* i_marked *) intros q H. destruct (i_marked0 q H) as (Ha & Hg). split; [|exact Hg]. apply sadd_in. now right.
    - (* i_zero *) intros q H. change (V st q = false). apply i_zero0. lia.
    - (* i_free_anc *) intros q H. apply sadd_in. right. eauto.
    - (* i_alive *) intros g Hg Ha Hf. apply i_alive0; auto. apply sadd_in in Ha as [E|Ha]; [|exact Ha].
      rewrite Forall_forall in i_gates0. pose proof (gate_ok_tgt _ _ (i_gates0 g Hg)). lia.
  Qed.

  Lemma Ext_new_anc d st : Ext d st (new_anc st).
  Proof.
    constructor; sts; auto.
    - (* x_qmap *) intros k q H. apply qm_set_in in H as [[-> ->]|H]; [now right|now left].
    - (* x_comp *) exists []. now rewrite app_nil_r.
    - (* x_anc_sub *) intros q H. apply sadd_in. now right.
    - (* x_anc_new *) intros q H. apply sadd_in in H as [->|H]; [now right|now left].
  Qed.

  Lemma take_order_inv erets st l st' : take_order erets st = Ok (l, st') ->
    st' = set_orc (tl (st_orc st)) st /\ NoDup l /\ (forall x, In x l <-> In x erets).
  Proof.
    unfold take_order. destruct (st_orc st) as [|[p|o] r]; try discriminate.
    destruct (enumerates o erets) eqn:E; [|discriminate]. intros H. injection H as <- <-.
    unfold enumerates in E. apply andb_true_iff in E as [E E3]. apply andb_true_iff in E as [E1 E2].
    split; [reflexivity|]. split; [now apply nodupb_NoDup|].
    rewrite forallb_forall in E2, E3. intros x. split; intros H.
    - apply mem_nat_in. now apply E2.
    - apply mem_nat_in. now apply E3.
  Qed.

  (* a result without destination sits on the qubit of a symbol, or on an ancilla
     that is new or was recorded in the cache *)
  Definition res_class (e : bexp) (r : nat) (st st' : cst) : Prop :=
    match e with
    | BSym s => In (NSym s, r) (st_qmap st')
    | _ => In r (st_anc st') /\ (st_nq st <= r \/ exists k, In (k, r) (st_cache st))
    end.

  Definition has_gate (st : cst) (r : nat) : Prop := exists g, In g (st_comp st) /\ tgt g = r.

  (* the contract of compile_expr(qc, e, dest), conjunct by conjunct:
     1  the invariant holds again (in particular CACHE SOUNDNESS, i_cache);
     2  the state has grown as Ext allows: no old qubit but the destination has changed;
     3  the result r is a qubit of the new state;
     4  r is marked only if it was marked before;
     5  and so is every qubit that was private;
     6  when e is compound a gate of the computation list targets r;
     7  every ancilla created on the way is r or has been marked;
     8  a private qubit that had never been a control has not become one;
     9  a result that is a new qubit and no destination has never been a control;
     10 with a destination d: r = d, which holds old(d) xor value(e);
        without: r holds value(e) and is a symbol's qubit or an ancilla (res_class) *)
  Definition post (e : bexp) (dest : option nat) (st : cst) (r : nat) (st' : cst) : Prop :=
    Inv st' /\ Ext dest st st' /\ r < st_nq st' /\
    (In r (st_marked st') -> In r (st_marked st)) /\
    (forall q, Priv st q -> In q (st_marked st') -> In q (st_marked st)) /\
    (compound e = true -> has_gate st' r) /\
    (forall q, In q (st_anc st') -> In q (st_anc st) \/ q = r \/ In q (st_marked st')) /\
    (forall q, Priv st q -> nc st q -> nc st' q) /\
    (dest = None -> st_nq st <= r -> nc st' r) /\
    match dest with
    | Some d => r = d /\ V st' d = xorb (V st d) (beval env e)
    | None => V st' r = beval env e /\ res_class e r st st'
    end.

  Definition pre (e : bexp) (dest : option nat) (st : cst) : Prop :=
    ok_expr e = true /\ Inv st /\
    (forall d, dest = Some d -> Priv st d /\ compound e = true /\ nc st d /\ ~ In d (st_free st)).

  Definition rec_spec (rec : bexp -> option nat -> cst -> res (nat * cst)) : Prop :=
    forall e dest st r st', pre e dest st -> rec e dest st = Ok (r, st') -> post e dest st r st'.

  Lemma pre_none e st : ok_expr e = true -> Inv st -> pre e None st.
  Proof. intros Hok I. split; [exact Hok|]. split; [exact I|discriminate]. Qed.

  Lemma has_gate_ext d st st' r : Ext d st st' -> has_gate st r -> has_gate st' r.
  Proof.
    intros X H. destruct (x_comp _ _ _ X) as [new E]. unfold has_gate. rewrite E. now apply gate_in_app.
  Qed.

  Lemma nc_same st st' q : st_gates st' = st_gates st -> nc st q -> nc st' q.
  Proof. unfold nc. intros E H. now rewrite E. Qed.

  Lemma nc_fresh st q : Inv st -> st_nq st <= q -> nc st q.
  Proof.
    intros I Hq g Hg Hc. pose proof (i_gates st I) as Hf. rewrite Forall_forall in Hf.
    pose proof (gate_ok_ctrls_lt _ _ _ (Hf g Hg) Hc). lia.
  Qed.

  (* the qubit that add_qubit creates is an accumulator *)
  Lemma Acc_raw st : Inv st -> Acc (set_nq (S (st_nq st)) st) (st_nq st).
  Proof.
    intros I. split; [split; [split; [exact (i_n st I)|sts; lia]|split]|split]; sts.
    - intros k _ Hin. apply (i_qmap_lt st I) in Hin. lia.
    - intros e Hin. apply (i_cache_lt st I) in Hin. lia.
    - apply (nc_fresh st (st_nq st) I). lia.
    - intros Hf. apply (i_free_anc st I), (i_anc_lt st I) in Hf. lia.
  Qed.

  Lemma res_class_cases e r st st' : ok_expr e = true -> res_class e r st st' ->
    (exists s, e = BSym s /\ In (NSym s, r) (st_qmap st')) \/
    (compound e = true /\ In r (st_anc st') /\ (st_nq st <= r \/ exists k, In (k, r) (st_cache st))).
  Proof. destruct e; try discriminate; intros _ H; [left; eauto|right; split; auto ..]. Qed.

  Lemma res_class_compound e r st st' : compound e = true ->
    (res_class e r st st' <-> In r (st_anc st') /\ (st_nq st <= r \/ exists k, In (k, r) (st_cache st))).
  Proof. destruct e; try discriminate; reflexivity. Qed.

  Lemma class_not_priv e st st' r q : ok_expr e = true -> Ext None st st' ->
    res_class e r st st' -> Priv st q -> r <> q.
  Proof.
    intros Hok X Hc P ->. pose proof (Priv_ext _ _ _ _ X P) as (_ & P2 & _). destruct P as (Q1 & _ & Q3).
    destruct (res_class_cases _ _ _ _ Hok Hc) as [(s & _ & H)|(_ & _ & [H|[k H]])];
      [now apply (P2 (NSym s) Logic.I)|lia|now apply (Q3 k)].
  Qed.

  Lemma class_not_free e st st' r : ok_expr e = true -> Inv st -> Inv st' -> Ext None st st' ->
    res_class e r st st' -> ~ In r (st_free st').
  Proof.
    intros Hok I I' X Hc Hf. rewrite (x_free _ _ _ X) in Hf. pose proof (i_free_anc st I r Hf) as Ha.
    destruct (res_class_cases _ _ _ _ Hok Hc) as [(s & _ & H)|(_ & _ & [H|[k H]])].
    - apply (i_named st' I' (NSym s) r H Logic.I). now apply (x_anc_sub _ _ _ X).
    - apply (i_anc_lt st I) in Ha. lia.
    - now apply (i_free_cache st I k r H).
  Qed.

  Lemma class_gate e st st' r : ok_expr e = true -> Inv st' -> res_class e r st st' ->
    (compound e = true -> has_gate st' r) -> In r (st_anc st') -> has_gate st' r.
  Proof.
    intros Hok I Hc Hg Ha. destruct (res_class_cases _ _ _ _ Hok Hc) as [(s & _ & H)|(C & _)]; [|now apply Hg].
    exfalso. now apply (i_named st' I (NSym s) r H Logic.I).
  Qed.

  (* a result that is an ancilla and was on no cached qubit before is new *)
  Lemma class_new e st st' r : ok_expr e = true -> Inv st' -> res_class e r st st' ->
    In r (st_anc st') -> ~ In r (map snd (st_cache st)) -> st_nq st <= r.
  Proof.
    intros Hok I Hc Ha Hw. destruct (res_class_cases _ _ _ _ Hok Hc) as [(s & _ & L)|(_ & _ & [L|[k L]])]; [exfalso|exact L|exfalso].
    - exact (i_named st' I (NSym s) r L Logic.I Ha).
    - apply Hw. apply in_map_iff. now exists (k, r).
  Qed.

  (* mark_ancilla over a list: only the set of marked ancillas changes *)
  Definition marks (l : list nat) (st : cst) : cst := fold_left (fun S q => mark_ancilla q S) l st.

  Lemma marks_eq l : forall st, marks l st = set_marked (st_marked (marks l st)) st.
  Proof.
    induction l as [|w l IH]; intros st; cbn [marks fold_left]; [now destruct st|].
    fold (marks l (mark_ancilla w st)). rewrite IH at 1. unfold mark_ancilla.
    destruct (mem_nat w (st_anc st)); reflexivity.
  Qed.

  Lemma marks_in l : forall st q,
    In q (st_marked (marks l st)) <-> In q (st_marked st) \/ (In q l /\ In q (st_anc st)).
  Proof.
    induction l as [|w l IH]; intros st q; cbn [marks fold_left]; [split; [now left|intros [H|[[] _]]; exact H]|].
    fold (marks l (mark_ancilla w st)). rewrite IH. unfold mark_ancilla. cbn [In].
    destruct (mem_nat w (st_anc st)) eqn:E; sts.
    - rewrite sadd_in. apply mem_nat_in in E. split; [intros [[->|H]|[H1 H2]]; auto|intros [H|[[->|H1] H2]]; auto].
    - apply mem_nat_false in E. split; [intros [H|[H1 H2]]; auto|intros [H|[[->|H1] H2]]; [auto|contradiction|auto]].
  Qed.

  Lemma Inv_set_marked st m : Inv st ->
    (forall q, In q m -> In q (st_marked st) \/ (In q (st_anc st) /\ has_gate st q /\ ~ In q (st_free st))) ->
    Inv (set_marked m st).
  Proof.
    intros I Hm. destruct I. constructor; sts; try assumption.
    - (* i_marked *) intros q H. destruct (Hm q H) as [H'|(Ha & Hg & _)]; auto.
    - (* i_free_marked *) intros q H. destruct (Hm q H) as [H'|(_ & _ & Hf)]; auto.
  Qed.

  Lemma Ext_set_marked d st m : Inv st -> (forall q, In q (st_marked st) -> In q m) ->
    (forall q, In q m -> In q (st_marked st) \/ In q (st_anc st)) -> Ext d st (set_marked m st).
  Proof.
    intros I H1 H2. constructor; sts; auto.
    - (* x_comp *) exists []. now rewrite app_nil_r.
    - (* x_marked_lt *) intros q H. destruct (H2 q H) as [?|Ha]; [now left|right; now apply (i_anc_lt st I)].
  Qed.

  Lemma marks_spec l st : Inv st ->
    (forall w, In w l -> (In w (st_anc st) -> has_gate st w) /\ ~ In w (st_free st)) ->
    exists m, marks l st = set_marked m st /\ Inv (set_marked m st) /\ Ext None st (set_marked m st) /\
              forall q, In q m <-> In q (st_marked st) \/ (In q l /\ In q (st_anc st)).
  Proof.
    intros I Hl. exists (st_marked (marks l st)). pose proof (marks_in l st) as Hm.
    split; [apply marks_eq|]. split; [|split; [|exact Hm]].
    - apply Inv_set_marked; [exact I|]. intros q Hq. apply Hm in Hq as [?|[Hq Ha]]; [now left|right].
      destruct (Hl q Hq) as [Hg Hf]. auto.
    - apply Ext_set_marked; [exact I| |]; intros q Hq; [apply Hm; now left|]. apply Hm in Hq as [Hq|[_ Hq]]; auto.
  Qed.

  (* what map_rec, started in st0 and ending in st', guarantees of the qubit r it returns for
     the operand e: r is a qubit of st', holds the value of e, is targeted by a gate of the
     computation list if it is an ancilla, is no private qubit of st0, has not been uncomputed *)
  Definition opfacts (st0 st' : cst) (e : bexp) (r : nat) : Prop :=
    r < st_nq st' /\ V st' r = beval env e /\ (In r (st_anc st') -> has_gate st' r) /\
    (forall q, Priv st0 q -> r <> q) /\ ~ In r (st_free st').

  Section WithRec.
  Variable rec : bexp -> option nat -> cst -> res (nat * cst).
  Hypothesis Hrec : rec_spec rec.

  Lemma map_rec_spec l : forall st erets st', forallb ok_expr l = true -> Inv st ->
    map_rec rec l st = Ok (erets, st') ->
    Inv st' /\ Ext None st st' /\ Forall2 (opfacts st st') l erets /\
    (forall q, Priv st q -> In q (st_marked st') -> In q (st_marked st)) /\
    (forall q, In q (st_anc st') -> In q (st_anc st) \/ In q erets \/ In q (st_marked st')) /\
    (forall q, Priv st q -> nc st q -> nc st' q).
  Proof.
    induction l as [|e l IH]; intros st erets st' Hok I; cbn [map_rec].
    - intros H. injection H as <- <-. split; [exact I|]. split; [apply Ext_refl|]. split; [constructor|].
      split; [auto|]. split; [auto|auto].
    - cbn [forallb] in Hok. apply andb_true_iff in Hok as [Hoke Hokl].
      destruct (rec e None st) as [[q st1]|c] eqn:E1; cbn [bind]; [|discriminate].
      destruct (map_rec rec l st1) as [[qs st2]|c] eqn:E2; cbn [bind]; [|discriminate].
      intros H. injection H as <- <-.
      destruct (Hrec e None st q st1 (pre_none e st Hoke I) E1) as (I1 & X1 & Hlt & M & P & G & AM1 & PN1 & NF1 & Hv & Hc).
      destruct (IH st1 qs st2 Hokl I1 E2) as (I2 & X2 & F & P2 & AM2 & PN2).
      split; [exact I2|]. split; [eapply Ext_trans; eassumption|]. split; [|split; [|split]].
      + constructor.
        * pose proof (x_nq _ _ _ X2). split; [lia|]. split; [|split; [|split]].
          -- rewrite (x_frame _ _ _ X2) by (try exact Hlt; discriminate). exact Hv.
          -- intros Ha. destruct (x_anc_new _ _ _ X2 q Ha) as [Ha'|Ha']; [|lia].
             eapply has_gate_ext; [exact X2|]. exact (class_gate e st st1 q Hoke I1 Hc G Ha').
          -- intros q' Pq. exact (class_not_priv e st st1 q q' Hoke X1 Hc Pq).
          -- rewrite (x_free _ _ _ X2). exact (class_not_free e st st1 q Hoke I I1 X1 Hc).
        * eapply Forall2_imp; [|exact F]. intros a b (A1 & A2 & A3 & A4 & A5). repeat split; auto.
          intros q' Pq. apply A4. eapply Priv_ext; eauto.
      + intros q' Pq Hm. apply P; [exact Pq|]. apply P2; [|exact Hm]. eapply Priv_ext; eauto.
      + intros q' Ha. destruct (AM2 q' Ha) as [Ha1|[Hq|Hm]]; [|right; left; now right|right; now right].
        destruct (AM1 q' Ha1) as [?|[->|Hm]]; [now left|right; left; now left|right; right].
        now apply (x_marked_sub _ _ _ X2).
      + intros q' Pq Hn. apply PN2; [eapply Priv_ext; eauto|now apply PN1].
  Qed.

  Lemma pre_acc e dest st : pre e dest st -> forall d, dest = Some d -> Acc st d.
  Proof. intros (_ & _ & H) d Hd. destruct (H d Hd) as (P & _ & Hn & Hf). exact (conj P (conj Hn Hf)). Qed.

  Lemma Acc_keep x st st' d : Ext x st st' -> (forall q, Priv st q -> nc st q -> nc st' q) -> Acc st d -> Acc st' d.
  Proof.
    intros X PN (P & Hn & Hf). split; [exact (Priv_ext _ _ _ _ X P)|]. split; [now apply PN|].
    now rewrite (x_free _ _ _ X).
  Qed.

  (* the destination after `dest or get_free_ancilla()`: the caller's accumulator or a new ancilla *)
  Lemma get_dest_spec dest st d st' : Inv st -> (forall d0, dest = Some d0 -> Acc st d0) ->
    get_dest dest st = Ok (d, st') ->
    Inv st' /\ Ext dest st st' /\ Acc st' d /\ st_gates st' = st_gates st /\ st_marked st' = st_marked st /\
    (forall q, In q (st_anc st') -> q = d \/ In q (st_anc st)) /\
    match dest with Some d0 => d = d0 | None => d = st_nq st /\ In d (st_anc st') end.
  Proof.
    intros I HA. destruct dest as [d0|]; cbn [get_dest].
    - intros H. injection H as <- <-. split; [exact I|]. split; [apply Ext_refl|]. split; [now apply HA|]. auto.
    - intros H. apply (get_free_ancilla_new st d st' I) in H as [-> ->].
      split; [now apply Inv_new_anc|]. split; [apply Ext_new_anc|]. sts. split; [|split; [reflexivity|]].
      + (* its name, that of an ancilla, does not count *)
        destruct (Acc_raw st I) as ((B & Q & C) & Hnf). split; [split; [exact B|split; [|exact C]]|exact Hnf].
        intros k Hk Hin. apply qm_set_in in Hin as [[-> _]|Hin]; [exact Hk|exact (Q k Hk Hin)].
      + split; [reflexivity|]. split; [intros q Hq; now apply sadd_in in Hq|]. split; [reflexivity|]. apply sadd_in. now left.
  Qed.

  (* [st'] is [st] after gates that target d and are controlled by qubits of cs (and after
     oracle choices have been consumed) *)
  Record Gates (d : nat) (cs : list nat) (st st' : cst) : Prop := {
    g_inv : Inv st';
    g_ext : Ext (Some d) st st';
    g_nc : forall q, nc st q -> ~ In q cs -> nc st' q;
    g_nq : st_nq st' = st_nq st;
    g_qmap : st_qmap st' = st_qmap st;
    g_anc : st_anc st' = st_anc st;
    g_marked : st_marked st' = st_marked st }.

  Lemma Gates_refl d cs st : Inv st -> Gates d cs st st.
  Proof. intros I. constructor; auto. apply Ext_refl. Qed.

  Lemma Gates_trans d cs st1 st2 st3 : Gates d cs st1 st2 -> Gates d cs st2 st3 -> Gates d cs st1 st3.
  Proof.
    intros [A1 A2 A3 A4 A5 A6 A7] [B1 B2 B3 B4 B5 B6 B7].
    constructor; [exact B1|eapply Ext_trans; eassumption|auto|congruence..].
  Qed.

  Lemma Gates_incl d cs cs' st st' : incl cs cs' -> Gates d cs st st' -> Gates d cs' st st'.
  Proof.
    intros Hi [A1 A2 A3 A4 A5 A6 A7]. constructor; auto.
  Qed.

  Lemma Gates_orc d cs st : Inv st -> Gates d cs st (set_orc (tl (st_orc st)) st).
  Proof.
    intros I. constructor; [|constructor; sts; auto|intros q H _; exact H|reflexivity..].
    - destruct I. constructor; sts; try assumption. now apply nopop_tl.
    - exists []. now rewrite app_nil_r.
  Qed.

  Lemma Acc_gates d cs st st' : Gates d cs st st' -> ~ In d cs -> Acc st d -> Acc st' d.
  Proof.
    intros G Hd (P & Hn & Hf). split; [exact (Priv_ext _ _ _ _ (g_ext _ _ _ _ G) P)|].
    split; [now apply (g_nc _ _ _ _ G)|]. now rewrite (x_free _ _ _ (g_ext _ _ _ _ G)).
  Qed.

  Lemma gate_on_acc g st : Inv st -> Acc st (tgt g) -> gate_ok (st_nq st) g ->
    (forall c, In c (ctrls g) -> ~ In c (st_free st)) ->
    Gates (tgt g) (ctrls g) st (add_gate g st) /\
    V (add_gate g st) (tgt g) = xorb (V st (tgt g)) (forallb (V st) (ctrls g)) /\ has_gate (add_gate g st) (tgt g).
  Proof.
    intros I A Hg Hcf. split; [|split].
    - constructor; sts; auto.
      + now apply Inv_gate.
      + apply Ext_gate.
      + intros q Hq Hn g0 H0. apply in_app_or in H0 as [H0|[<-|[]]]; [now apply Hq|exact Hn].
    - rewrite V_add_gate. apply fflip_tgt.
    - exists g. split; [sts; apply in_or_app; right; now left|reflexivity].
  Qed.

  (* as emitted by the compiler: qc.x / qc.cx / qc.mcx with target d *)
  Lemma acc_gate k cs d st st' : Inv st -> Acc st d -> kind_ok k (cs ++ [d]) ->
    (forall c, In c cs -> ~ In c (st_free st)) -> append_new k (cs ++ [d]) st = Ok st' ->
    Gates d cs st st' /\ V st' d = xorb (V st d) (forallb (V st) cs) /\ has_gate st' d /\
    (forall c, In c cs -> c < st_nq st /\ c <> d).
  Proof.
    intros I A Hk Hcf Ha. apply append_new_inv in Ha as (-> & Hnd & Hlt).
    set (g := mkcg (st_next st) k (cs ++ [d])).
    assert (Ht : tgt g = d) by apply last_last.
    assert (Hc : ctrls g = cs) by apply removelast_last.
    assert (Hg : gate_ok (st_nq st) g) by (repeat split; assumption).
    rewrite <- Ht in A. rewrite <- Hc in Hcf. pose proof (gate_on_acc g st I A Hg Hcf) as G. rewrite Ht, Hc in G.
    split; [exact (proj1 G)|]. split; [exact (proj1 (proj2 G))|]. split; [exact (proj2 (proj2 G))|].
    intros c Hcin. rewrite Forall_forall in Hlt. split; [apply Hlt, in_or_app; now left|].
    intros ->. apply NoDup_remove_2 in Hnd. rewrite app_nil_r in Hnd. contradiction.
  Qed.

  (* recording the value of a compound expression that was computed on a new qubit *)
  Lemma post_record e st d st' : compound e = true -> post e None st d st' -> st_nq st <= d ->
    ~ In d (st_free st') -> post e None st d (upd_cache (cache_set e d) st').
  Proof.
    intros Hc (I & X & L & M & PM & G & AM & PN & NC & Hv & Hcl) Hd Hf.
    apply (res_class_compound e d st st' Hc) in Hcl as [Ha Hnew].
    split; [exact (Inv_cache_set st' e d I L Hv (fun _ => Ha) (fun _ => G Hc) Hf)|].
    split; [exact (Ext_then_cache_set None st st' e d X (or_introl Hd))|].
    repeat (split; [assumption|]). apply res_class_compound; [exact Hc|now split].
  Qed.

  (* compile_and / compile_or / compile_not start by computing their operands
     (st -> st1) and choosing the destination (st1 -> st2); they end, after gates on
     the destination controlled by the operands (st2 -> st4), by marking the
     operands and recording the expression when the destination was a new qubit *)
  Lemma operands_spec e args dest st erets st1 d st2 :
    compound e = true -> forallb ok_expr args = true -> Inv st -> (forall d0, dest = Some d0 -> Acc st d0) ->
    map_rec rec args st = Ok (erets, st1) -> get_dest dest st1 = Ok (d, st2) ->
    Inv st2 /\ Acc st2 d /\ ~ In d erets /\ Forall2 (fun e r => V st2 r = beval env e) args erets /\
    (forall r, In r erets -> ~ In r (st_free st2)) /\
    forall st4 ms, Gates d ms st2 st4 -> (forall x, In x ms <-> In x erets) -> has_gate st4 d ->
      V st4 d = xorb (V st2 d) (beval env e) ->
      post e dest st d (if is_none dest then upd_cache (cache_set e d) (marks ms st4) else marks ms st4).
  Proof.
    intros Hc Hok I HA E1 E2.
    destruct (map_rec_spec args st erets st1 Hok I E1) as (I1 & X1 & F & P1 & AM1 & PN1).
    assert (HA1 : forall d0, dest = Some d0 -> Acc st1 d0) by (intros d0 Hd0; eapply Acc_keep; eauto).
    destruct (get_dest_spec dest st1 d st2 I1 HA1 E2) as (I2 & X2 & A2 & Gt2 & M2 & An2 & T2).
    assert (Hop : forall w, In w erets -> w < st_nq st1 /\ (In w (st_anc st1) -> has_gate st1 w) /\
                                           (forall q, Priv st q -> w <> q) /\ ~ In w (st_free st1)).
    { intros w Hw. destruct (Forall2_in_r _ _ _ _ F Hw) as (a & _ & (B1 & _ & B3 & B4 & B5)). auto. }
    assert (Hnp : forall q, Priv st q -> ~ In q erets).
    { intros q Pq Hq. exact (proj1 (proj2 (proj2 (Hop q Hq))) q Pq eq_refl). }
    assert (Hde : ~ In d erets).
    { destruct dest as [d0|]; [subst d; exact (Hnp d0 (proj1 (HA d0 eq_refl)))|]. destruct T2 as [-> _].
      intros Hw. apply Hop in Hw. lia. }
    split; [exact I2|]. split; [exact A2|]. split; [exact Hde|]. split; [|split].
    { eapply Forall2_imp; [|exact F]. intros a b (_ & B2 & _). now rewrite (V_same st1 st2 Gt2). }
    { intros r Hin. rewrite (x_free _ _ _ X2). now apply Hop. }
    intros st4 ms [I4 X4 NC4 N4 _ A4 M4] Hms G4 Hval. destruct A2 as ((D2 & _) & Hnc2 & Hf2).
    assert (Hdm : ~ In d ms) by now rewrite Hms.
    assert (Hd1 : In d (st_marked st1) -> In d (st_marked st)).
    { intros Hm. destruct dest as [d0|]; [subst d; exact (P1 d0 (proj1 (HA d0 eq_refl)) Hm)|].
      destruct T2 as [-> _]. apply (i_marked st1 I1) in Hm as [Hm _]. apply (i_anc_lt st1 I1) in Hm. lia. }
    destruct (marks_spec ms st4 I4) as (m5 & E5 & I5 & X5 & Hm5).
    { intros w Hw. apply Hms in Hw. destruct (Hop w Hw) as (B1 & B3 & _ & B5). split.
      - intros Ha. rewrite A4 in Ha. destruct (An2 w Ha) as [->|Ha']; [contradiction|].
        eapply has_gate_ext; [exact X4|]. eapply has_gate_ext; [exact X2|]. now apply B3.
      - now rewrite (x_free _ _ _ X4), (x_free _ _ _ X2). }
    rewrite E5. clear E5. rewrite M4, M2, A4 in Hm5.
    assert (X15 : Ext dest st (set_marked m5 st4)).
    { eapply Ext_trans; [|apply Ext_weaken; exact X5]. eapply (Ext_into dest d); [|exact X4|].
      - eapply Ext_trans; [apply Ext_weaken; exact X1|exact X2].
      - destruct dest as [d0|]; [left; now subst d|right]. destruct T2 as [-> _]. apply (x_nq _ _ _ X1). }
    assert (Hpost : post e dest st d (set_marked m5 st4)).
    { split; [exact I5|]. split; [exact X15|]. sts. split; [rewrite N4; exact (proj2 D2)|].
      split. { intros Hm. apply Hd1. apply Hm5 in Hm as [Hm|[Hm _]]; [exact Hm|contradiction]. }
      split. { intros q Pq Hm. apply Hm5 in Hm as [Hm|[Hm _]]; [now apply (P1 q Pq)|].
               apply Hms in Hm. now apply Hnp in Hm. }
      split; [intros _; exact G4|].
      split. { intros q Ha. rewrite A4 in Ha. destruct (An2 q Ha) as [->|Ha1]; [right; now left|].
               destruct (AM1 q Ha1) as [?|[Hq|Hq]]; [now left| |]; right; right; apply Hm5; [right|now left].
               split; [now apply Hms|exact Ha]. }
      split. { intros q Pq Hn. apply NC4; [apply (nc_same st1); [exact Gt2|now apply PN1]|].
               intros Hq. apply Hms in Hq. now apply Hnp in Hq. }
      split; [intros _ _; now apply NC4|].
      assert (Hv5 : V st4 d = xorb (V st1 d) (beval env e)) by now rewrite Hval, (V_same st1 st2 Gt2).
      change (V (set_marked m5 st4)) with (V st4). destruct dest as [d0|].
      - subst d. split; [reflexivity|]. rewrite Hv5. f_equal. apply (x_frame _ _ _ X1); [|discriminate].
        exact (proj2 (proj1 (proj1 (HA d0 eq_refl)))).
      - destruct T2 as [-> Ha2]. rewrite Hv5, (i_zero st1 I1) by lia. split; [now destruct (beval env e)|].
        apply res_class_compound; [exact Hc|]. sts. rewrite A4. split; [exact Ha2|left; apply (x_nq _ _ _ X1)]. }
    destruct dest as [d0|]; cbn [is_none]; [exact Hpost|]. destruct T2 as [-> _].
    apply post_record; [exact Hc|exact Hpost|apply (x_nq _ _ _ X1)|]. sts.
    now rewrite (x_free _ _ _ X4).
  Qed.

  Lemma c_and_spec args dest st r st' : pre (BAnd args) dest st ->
    c_and rec (BAnd args) args dest st = Ok (r, st') -> post (BAnd args) dest st r st'.
  Proof.
    intros Hpre H. pose proof Hpre as (Hok & I & _). pose proof (pre_acc _ _ _ Hpre) as HA.
    cbn [ok_expr] in Hok. unfold c_and in H.
    bind_ok H as [erets st1] E1.
    bind_ok H as [d st2] E2.
    destruct (operands_spec (BAnd args) args dest st erets st1 d st2 eq_refl Hok I HA E1 E2) as (I2 & A2 & Hnin & Hv & Hfr & Hfin).
    rewrite (proj2 (mem_nat_false d erets) Hnin) in H.
    bind_ok H as [l st3] E3.
    apply take_order_inv in E3 as (-> & _ & Hset).
    bind_ok H as st4 E4. injection H as <- <-.
    pose proof (Gates_orc d l st2 I2) as G3.
    destruct (acc_gate (KMCX (length l)) l d _ st4 (g_inv _ _ _ _ G3) A2 (last_length l d)) as (G4 & V4 & Hg4 & _); [|exact E4|].
    { intros c Hc. apply Hfr. now apply Hset. }
    apply (Hfin st4 l (Gates_trans _ _ _ _ _ G3 G4) Hset Hg4).
    rewrite V4. f_equal. rewrite (forallb_same_set _ l erets Hset), beval_and. now apply forallb_Forall2.
  Qed.

  Lemma or_lookup_props e l e' : or_lookup tbl e l = Some e' ->
    beval env e' = beval env (BOr l) /\ ok_expr e' = true /\ compound e' = true.
  Proof.
    intros H. apply or_lookup_valid in H as [Hv Hin]. split; [now apply or_valid_sound|]. split.
    - apply in_map_iff in Hin as (p & <- & Hp). unfold tbl_ok in Htbl. rewrite forallb_forall in Htbl. now apply Htbl.
    - destruct e' as [| |a| | | | |]; try discriminate. reflexivity.
  Qed.

  (* list(set(erets)) in compile_or *)
  Lemma or_order_spec es st l st' d : Inv st ->
    (if Nat.leb (length (dedup es)) 1 then Ok (dedup es, st) else take_order es st) = Ok (l, st') ->
    NoDup l /\ (forall x, In x l <-> In x es) /\ Gates d l st st' /\ st_gates st' = st_gates st.
  Proof.
    intros I H. destruct (Nat.leb (length (dedup es)) 1).
    - injection H as <- <-. destruct (dedup_spec es) as [A B]. split; [exact A|]. split; [exact B|].
      split; [now apply Gates_refl|reflexivity].
    - apply take_order_inv in H as (-> & A & B). split; [exact A|]. split; [exact B|].
      split; [now apply Gates_orc|reflexivity].
  Qed.

  (* a CX from every qubit of l into the accumulator d *)
  Lemma cx_fold_spec d : forall l st st', Inv st -> Acc st d -> (forall c, In c l -> ~ In c (st_free st)) ->
    fold_left (fun r i => let* s := r in g_cx i d s) l (Ok st) = Ok st' ->
    Gates d l st st' /\ V st' d = xorb (V st d) (fold_right xorb false (map (V st) l)) /\
    (l <> [] -> has_gate st' d) /\ (forall c, In c l -> c < st_nq st /\ c <> d).
  Proof.
    induction l as [|p l IH]; intros st st' I A Hf H; cbn [fold_left] in H.
    - injection H as <-. split; [now apply Gates_refl|]. split; [cbn; now rewrite xorb_false_r|].
      split; [congruence|intros c []].
    - cbn [bind] in H. destruct (g_cx p d st) as [st1|c] eqn:E1;
        [|now rewrite (fold_bind_err (fun s i => g_cx i d s)) in H].
      destruct (acc_gate KCX [p] d st st1 I A eq_refl) as (G1 & V1 & Hg1 & B1);
        [intros c [<-|[]]; apply Hf; now left|exact E1|].
      assert (Hpd : ~ In d [p]) by (intros [E|[]]; now apply (B1 p (or_introl eq_refl))).
      destruct (IH st1 st' (g_inv _ _ _ _ G1) (Acc_gates _ _ _ _ G1 Hpd A)) as (G2 & V2 & _ & B2); [|exact H|].
      { intros c Hc. rewrite (x_free _ _ _ (g_ext _ _ _ _ G1)). apply Hf. now right. }
      rewrite (g_nq _ _ _ _ G1) in B2. split; [|split; [|split]].
      + eapply Gates_trans; [eapply Gates_incl; [|exact G1]|eapply Gates_incl; [|exact G2]].
        * intros x [<-|[]]. now left.
        * intros x Hx. now right.
      + rewrite V2, V1. cbn [map fold_right forallb]. rewrite andb_true_r, xorb_assoc. do 3 f_equal.
        apply map_ext_in. intros c Hc. apply (x_frame _ _ _ (g_ext _ _ _ _ G1)); [now apply B2|].
        intros E. injection E as <-. now apply (B2 d Hc).
      + intros _. eapply has_gate_ext; [exact (g_ext _ _ _ _ G2)|exact Hg1].
      + intros c [<-|Hc]; [apply B1; now left|now apply B2].
  Qed.

  (* CX from each operand, then MCX when there are two: xor-ing both and their
     conjunction into d amounts to xor-ing their disjunction *)
  Lemma or_value (f : nat -> bool) l a b : NoDup l -> (forall x, In x l <-> In x [a; b]) ->
    xorb (fold_right xorb false (map f l)) (if Nat.ltb 1 (length l) then forallb f l else false) = f a || f b.
  Proof.
    intros Hnd Hs. assert (Ha : In a l) by (apply Hs; now left). assert (Hb : In b l) by (apply Hs; right; now left).
    destruct l as [|x [|y [|z t]]].
    - destruct Ha.
    - destruct Ha as [->|[]], Hb as [->|[]]. cbn. now destruct (f b).
    - assert (Hx : In x [a; b]) by (apply Hs; now left). assert (Hy : In y [a; b]) by (apply Hs; right; now left).
      inversion Hnd as [|? ? Hn _]; subst.
      destruct Hx as [<-|[<-|[]]], Hy as [<-|[<-|[]]]; try (exfalso; apply Hn; now left);
        cbn; now destruct (f a), (f b).
    - apply NoDup_incl_length with (l' := [a; b]) in Hnd; [cbn in Hnd; lia|]. intros u Hu. now apply Hs.
  Qed.

  (* compile_or with two operands; they may sit on the same qubit *)
  Lemma c_or_bin_spec e1 e2 dest st r st' : pre (BOr [e1; e2]) dest st ->
    c_or tbl rec (BOr [e1; e2]) [e1; e2] dest st = Ok (r, st') -> post (BOr [e1; e2]) dest st r st'.
  Proof.
    intros Hpre H. pose proof Hpre as (Hok & I & _). pose proof (pre_acc _ _ _ Hpre) as HA.
    assert (Hokl : forallb ok_expr [e1; e2] = true) by (cbn [forallb]; rewrite andb_true_r; exact Hok).
    unfold c_or in H. change (Nat.ltb 2 (length [e1; e2])) with false in H. cbv iota in H.
    bind_ok H as [erets st1] E1.
    bind_ok H as [d st2] E2.
    destruct (operands_spec (BOr [e1; e2]) _ dest st erets st1 d st2 eq_refl Hokl I HA E1 E2) as (I2 & A2 & Hnin & Hv & Hfr & Hfin).
    rewrite (proj2 (mem_nat_false d erets) Hnin) in H.
    destruct (if Nat.leb (length (dedup erets)) 1 then Ok (dedup erets, st2) else take_order erets st2)
      as [[l st3]|c] eqn:E3; cbn [bind] in H; [|discriminate].
    destruct (or_order_spec erets st2 l st3 d I2 E3) as (Hnd & Hset & G3 & Gt3).
    assert (Hdl : ~ In d l) by now rewrite Hset.
    pose proof (Acc_gates _ _ _ _ G3 Hdl A2) as A3.
    assert (Hfr3 : forall c, In c l -> ~ In c (st_free st3)).
    { intros c Hc. rewrite (x_free _ _ _ (g_ext _ _ _ _ G3)). apply Hfr. now apply Hset. }
    bind_ok H as sx E4.
    destruct (cx_fold_spec d l st3 sx (g_inv _ _ _ _ G3) A3 Hfr3 E4) as (G4 & V4 & Hg4 & B4).
    bind_ok H as st4 E5.
    injection H as <- <-.
    assert (Hmcx : Gates d l sx st4 /\ (has_gate sx d -> has_gate st4 d) /\
                   V st4 d = xorb (V sx d) (if Nat.ltb 1 (length l) then forallb (V sx) l else false)).
    { destruct (Nat.ltb 1 (length l)).
      - destruct (acc_gate (KMCX (length l)) l d sx st4 (g_inv _ _ _ _ G4) (Acc_gates _ _ _ _ G4 Hdl A3) (last_length l d))
          as (G5 & V5 & Hg5 & _); [|exact E5|auto].
        intros c Hc. rewrite (x_free _ _ _ (g_ext _ _ _ _ G4)). now apply Hfr3.
      - injection E5 as <-. split; [apply Gates_refl, (g_inv _ _ _ _ G4)|]. split; [auto|now rewrite xorb_false_r]. }
    destruct Hmcx as (G5 & Hg5 & V5).
    inversion Hv as [|? r1 ? ? V1 Hv1]; subst. inversion Hv1 as [|? r2 ? ? V2 Hv2]; subst. inversion Hv2; subst.
    apply (Hfin st4 l (Gates_trans _ _ _ _ _ (Gates_trans _ _ _ _ _ G3 G4) G5) Hset).
    - apply Hg5, Hg4. intros ->. apply (Hset r1). now left.
    - rewrite V5, V4, xorb_assoc. rewrite (forallb_ext_in (V sx) (V st3) l).
      + rewrite (or_value (V st3) l r1 r2 Hnd Hset), !(V_same st2 st3 Gt3), V1, V2, beval_or. cbn [existsb].
        now rewrite orb_false_r.
      + intros c Hc. apply (x_frame _ _ _ (g_ext _ _ _ _ G4)); [now apply B4|]. intros E. injection E as <-. contradiction.
  Qed.

  (* the value of a on a new ancilla is negated in place: what the cache holds on the qubit is
     evicted, the qubit is flipped, the negation is recorded *)
  Lemma post_not_inplace a st r st1 st2 : ok_expr a = true -> Inv st -> post a None st r st1 ->
    In r (st_anc st1) -> st_nq st <= r -> g_x r st1 = Ok st2 ->
    post (BNot a) None st r (upd_cache (cache_set (BNot a) r) st2).
  Proof.
    intros Hoka I (I1 & X1 & Hlt & M1 & P1 & G1 & AM1 & PN1 & NF1 & Hv & Hc) Ean Hfr E2.
    pose proof (class_not_free a st st1 r Hoka I I1 X1 Hc) as Hef.
    unfold g_x in E2. apply append_new_inv in E2 as (-> & Hnd & Hf).
    set (g := mkcg (st_next st1) (K1 BX) [r]).
    assert (Hg : gate_ok (st_nq st1) g) by (repeat split; auto).
    set (st1' := set_cache (cache_remove [r] (st_cache st1)) st1).
    assert (I1' : Inv st1') by exact (Inv_cache_remove st1 [r] I1).
    assert (A1' : Acc st1' r).
    { split; [split; [split; [exact (Nat.le_trans _ _ _ (i_n st I) Hfr)|exact Hlt]|split]|split; [now apply NF1|exact Hef]].
      - intros k Hk Hin. now apply (i_named st1 I1 k r Hin Hk).
      - intros e Hin. apply cache_remove_in in Hin as [_ Hin]. apply Hin. now left. }
    destruct (gate_on_acc g st1' I1' A1' Hg) as ([I2 _ NC2 _ _ _ _] & Hval & Hg2); [intros c []|].
    change (V (add_gate g st1) r = xorb (V st1 r) true) in Hval. rewrite Hv, xorb_true_r, <- beval_not in Hval.
    change (has_gate (add_gate g st1) r) in Hg2.
    split.
    { change (Inv (set_cache (cache_set (BNot a) r (st_cache st1)) (add_gate g st1))).
      rewrite <- (cache_set_evicted (BNot a) r (st_cache st1)).
      apply (Inv_cache_set (add_gate g st1') (BNot a) r); auto. }
    split.
    { apply Ext_then_cache_set; [|now left]. exact (Ext_into None r st st1 _ X1 (Ext_gate st1 g) (or_intror Hfr)). }
    assert (Hnc2 : forall q, nc st1 q -> nc (add_gate g st1) q) by (intros q Hq; apply NC2; [exact Hq|intros []]).
    sts. split; [exact Hlt|]. split; [exact M1|]. split; [exact P1|]. split; [intros _; exact Hg2|].
    split; [exact AM1|]. split; [intros q Pq Hn; apply Hnc2; now apply PN1|].
    split; [intros _ _; now apply Hnc2, NF1|]. split; [exact Hval|]. split; [exact Ean|now left].
  Qed.

  Lemma c_not_spec a dest sym st r st' :
    self_not a sym = false ->
    pre (BNot a) dest st -> c_not rec (BNot a) a dest sym st = Ok (r, st') -> post (BNot a) dest st r st'.
  Proof.
    intros Hself Hpre H. pose proof Hpre as (Hoka & I & _). pose proof (pre_acc _ _ _ Hpre) as HA.
    cbn [ok_expr] in Hoka. unfold c_not in H. rewrite Hself in H.
    bind_ok H as [eret st1] E1.
    destruct (mem_nat eret (st_anc st1) && negb (mem_nat eret (map snd (st_cache st))) && is_none dest) eqn:Eb.
    - (* the result is a new ancilla and there is no destination *)
      apply andb_true_iff in Eb as [Eb Edn]. apply andb_true_iff in Eb as [Ean Ewas].
      destruct dest; [discriminate|]. apply mem_nat_in in Ean. apply negb_true_iff in Ewas.
      apply mem_nat_false in Ewas.
      pose proof (Hrec a None st eret st1 (pre_none a st Hoka I) E1) as Hp.
      bind_ok H as st2 E2. injection H as <- <-.
      apply (post_not_inplace a st eret st1 st2 Hoka I Hp Ean); [|exact E2].
      destruct Hp as (I1 & _ & _ & _ & _ & _ & _ & _ & _ & _ & Hc). exact (class_new a st st1 eret Hoka I1 Hc Ean Ewas).
    - (* copy into a destination qubit *)
      bind_ok H as [d st2] E2.
      bind_ok H as st3 E3.
      bind_ok H as st4 E4. injection H as <- <-.
      assert (Hokl : forallb ok_expr [a] = true) by (cbn [forallb]; now rewrite andb_true_r).
      assert (E1' : map_rec rec [a] st = Ok ([eret], st1)) by (cbn [map_rec]; rewrite E1; reflexivity).
      destruct (operands_spec (BNot a) [a] dest st [eret] st1 d st2 eq_refl Hokl I HA E1' E2) as (I2 & A2 & Hnin & Hv & Hfr & Hfin).
      inversion Hv as [|? ? ? ? Hva _]; subst.
      destruct (acc_gate KCX [eret] d st2 st3 I2 A2 eq_refl) as (G3 & V3 & _ & _);
        [intros c [<-|[]]; apply Hfr; now left|exact E3|].
      destruct (acc_gate (K1 BX) [] d st3 st4 (g_inv _ _ _ _ G3) (Acc_gates _ _ _ _ G3 Hnin A2) eq_refl)
        as (G4 & V4 & Hg4 & _); [intros c []|exact E4|].
      apply (Hfin st4 [eret] (Gates_trans _ _ _ _ _ G3 (Gates_incl _ [] _ _ _ (incl_nil_l _) G4)) (fun x => iff_refl _) Hg4).
      rewrite V4, V3. cbn [forallb]. rewrite Hva, beval_not. now destruct (V st2 d), (beval env a).
  Qed.

  (* xor accumulation: what a step that xors the value v into the accumulator d
     guarantees; compile_xor is a sequence of such steps *)
  Definition xored (v : bool) (d : nat) (st st' : cst) : Prop :=
    Inv st' /\ Ext (Some d) st st' /\ V st' d = xorb (V st d) v /\
    (forall q, Priv st q -> In q (st_marked st') -> In q (st_marked st)) /\
    (forall q, In q (st_anc st') -> In q (st_anc st) \/ In q (st_marked st')) /\
    (forall q, Priv st q -> nc st q -> nc st' q).

  Lemma xored_refl d st : Inv st -> xored false d st st.
  Proof. intros I. split; [exact I|]. split; [apply Ext_refl|]. split; [now rewrite xorb_false_r|auto 6]. Qed.

  Lemma xored_trans v1 v2 d st1 st2 st3 : xored v1 d st1 st2 -> xored v2 d st2 st3 -> xored (xorb v1 v2) d st1 st3.
  Proof.
    intros (_ & X1 & V1 & Q1 & AM1 & PN1) (I2 & X2 & V2 & Q2 & AM2 & PN2).
    assert (HP : forall q, Priv st1 q -> Priv st2 q) by (intros q; apply Priv_ext with (d' := Some d); exact X1).
    split; [exact I2|]. split; [eapply Ext_trans; eassumption|]. split; [now rewrite V2, V1, xorb_assoc|].
    split; [auto|]. split; [|auto].
    intros q Ha. destruct (AM2 q Ha) as [Ha1|?]; [|now right].
    destruct (AM1 q Ha1) as [?|Hm]; [now left|right]. now apply (x_marked_sub _ _ _ X2).
  Qed.

  Lemma xored_acc v d st st' : xored v d st st' -> Acc st d -> Acc st' d.
  Proof. intros (_ & X & _ & _ & _ & PN). now apply Acc_keep with (x := Some d). Qed.

  Lemma xored_gates v cs d st st' : Gates d cs st st' -> (forall q, Priv st q -> ~ In q cs) ->
    V st' d = xorb (V st d) v -> xored v d st st'.
  Proof.
    intros [I X NC N _ A M] Hcs Hv. unfold xored. rewrite M, A. repeat (split; auto).
  Qed.

  Lemma ok_not_sym_compound a : ok_expr a = true -> is_sym a = false -> compound a = true.
  Proof. destruct a; cbn; congruence. Qed.

  Lemma rec_xored e d st d1 st1 : Inv st -> Acc st d -> ok_expr e = true -> compound e = true ->
    rec e (Some d) st = Ok (d1, st1) -> d1 = d /\ xored (beval env e) d st st1 /\ has_gate st1 d.
  Proof.
    intros I (P & Hn & Hf) Hk Hc Hr.
    assert (Hpre : pre e (Some d) st).
    { split; [exact Hk|]. split; [exact I|]. intros d0 Hd0. injection Hd0 as <-. auto. }
    destruct (Hrec e (Some d) st d1 st1 Hpre Hr) as (I1 & X1 & _ & _ & Q1 & G & AM1 & PN1 & _ & -> & V1).
    split; [reflexivity|]. split; [|now apply G]. repeat (split; [assumption|]). split; [|exact PN1].
    (* d, if an ancilla now, was one before: it is not new *)
    intros q Ha. destruct (AM1 q Ha) as [?|[->|?]]; [now left| |now right].
    left. destruct (x_anc_new _ _ _ X1 d Ha) as [?|?]; [assumption|]. destruct P as ((_ & P) & _). lia.
  Qed.

  Lemma xor_args_spec args : forall st d r st',
    forallb ok_expr args = true -> Inv st -> Acc st d -> xor_args rec args d st = Ok (r, st') ->
    r = d /\ xored (fold_right xorb false (map (beval env) args)) d st st' /\ (args <> [] -> has_gate st' d).
  Proof.
    induction args as [|e args IH]; intros st d r st' Hok I A H; cbn [xor_args] in H.
    - injection H as <- <-. split; [reflexivity|]. split; [now apply xored_refl|congruence].
    - cbn [forallb] in Hok. apply andb_true_iff in Hok as [Hoke Hokl]. bind_ok H as [d1 st1] E.
      assert (Hstep : d1 = d /\ xored (beval env e) d st st1 /\ has_gate st1 d).
      { destruct e as [b|s|a|l|l|l|c t f|a b]; try exact (rec_xored _ d st d1 st1 I A Hoke eq_refl E);
          cbn [ok_expr] in Hoke; try discriminate.
        - bind_ok E as q Eq. apply qc_get_ok, qm_get_in in Eq.
          assert (Hqd : q <> d) by (intros ->; now apply (proj1 (proj2 (proj1 A)) (NSym s) Logic.I)).
          rewrite (proj2 (Nat.eqb_neq q d) Hqd) in E. bind_ok E as sx E1. injection E as <- <-.
          destruct (acc_gate KCX [q] d st sx I A eq_refl) as (G1 & V1 & Hg1 & _); [|exact E1|].
          { intros c [<-|[]] Hf. apply (i_named st I (NSym s) q Eq Logic.I). now apply (i_free_anc st I). }
          split; [reflexivity|]. split; [|exact Hg1]. apply (xored_gates _ [q]); [exact G1| |].
          + intros x (_ & Px & _) [<-|[]]. now apply (Px (NSym s) Logic.I).
          + rewrite V1. cbn [forallb]. now rewrite andb_true_r, (i_sym st I s q Eq).
        - destruct (is_sym a) eqn:Esym; [exact (rec_xored (BNot a) d st d1 st1 I A Hoke eq_refl E)|].
          bind_ok E as [d2 st2] E1. bind_ok E as sx E2. injection E as <- <-.
          destruct (rec_xored a d st d2 st2 I A Hoke (ok_not_sym_compound a Hoke Esym) E1) as (-> & X1 & G1).
          destruct (acc_gate (K1 BX) [] d st2 sx (proj1 X1) (xored_acc _ _ _ _ X1 A) eq_refl)
            as (G2 & V2 & Hg2 & _); [intros c []|exact E2|].
          split; [reflexivity|]. split; [|exact Hg2]. rewrite beval_not, <- xorb_true_r.
          eapply xored_trans; [exact X1|]. apply (xored_gates _ []); [exact G2|intros x _ []|exact V2]. }
      destruct Hstep as (-> & X1 & G1).
      destruct (IH st1 d r st' Hokl (proj1 X1) (xored_acc _ _ _ _ X1 A) H) as (-> & X2 & _).
      split; [reflexivity|]. split; [cbn [map fold_right]; eapply xored_trans; eassumption|].
      intros _. eapply has_gate_ext; [exact (proj1 (proj2 X2))|exact G1].
  Qed.

  Lemma c_xor_spec args dest st r st' : pre (BXor args) dest st ->
    c_xor rec (BXor args) args dest st = Ok (r, st') -> post (BXor args) dest st r st'.
  Proof.
    intros Hpre H. pose proof Hpre as (Hok & I & _). pose proof (pre_acc _ _ _ Hpre) as HA.
    cbn [ok_expr] in Hok. apply andb_true_iff in Hok as [Hokl Hne].
    assert (Hne' : args <> []) by (intros ->; discriminate).
    unfold c_xor in H.
    bind_ok H as [d0 st0] E0.
    destruct (get_dest_spec dest st d0 st0 I HA E0) as (I0 & X0 & A0 & G0 & M0 & An0 & T0).
    bind_ok H as [d st1] E1. injection H as <- <-.
    destruct (xor_args_spec args st0 d0 d st1 Hokl I0 A0 E1) as (-> & X1 & G1).
    pose proof (xored_acc _ _ _ _ X1 A0) as ((D1 & _) & Hn1 & Hf1).
    destruct X1 as (I1 & X1 & V1 & Q1 & AM1 & PN1). rewrite <- beval_xor, (V_same st st0 G0) in V1.
    assert (HP : forall q, Priv st q -> Priv st0 q) by (intros q; now apply Priv_ext with (d' := dest)).
    assert (Hpost : post (BXor args) dest st d0 st1).
    { split; [exact I1|]. split.
      { apply (Ext_into dest d0 st st0 st1 X0 X1). destruct dest as [d1|]; [left; now subst|right; destruct T0 as [-> _]; lia]. }
      split; [exact (proj2 D1)|]. split; [rewrite <- M0; exact (Q1 d0 (proj1 A0))|].
      split; [intros q Pq; rewrite <- M0; now apply Q1, HP|]. split; [intros _; now apply G1|].
      split. { intros q Ha. destruct (AM1 q Ha) as [Ha0|?]; [|right; now right].
               destruct (An0 q Ha0) as [->|?]; [right; now left|now left]. }
      split; [intros q Pq Hn; apply PN1; [now apply HP|exact (nc_same st st0 q G0 Hn)]|].
      split; [intros _ _; exact Hn1|]. destruct dest as [d1|].
      - now subst.
      - destruct T0 as [-> Ha0]. rewrite V1, (i_zero st I) by lia. split; [now destruct (beval env (BXor args))|].
        apply res_class_compound; [reflexivity|]. split; [now apply (x_anc_sub _ _ _ X1)|now left]. }
    destruct dest; cbn [is_none]; [exact Hpost|].
    apply post_record; [reflexivity|exact Hpost|destruct T0 as [-> _]; lia|exact Hf1].
  Qed.

  Lemma c_or_spec args dest st r st' : pre (BOr args) dest st ->
    c_or tbl rec (BOr args) args dest st = Ok (r, st') -> post (BOr args) dest st r st'.
  Proof.
    intros Hpre H. destruct (Nat.ltb 2 (length args)) eqn:El.
    - destruct Hpre as (Hok & I & HP). unfold c_or in H. rewrite El in H.
      destruct (or_lookup tbl (BOr args) args) as [e'|] eqn:Eo; [|discriminate].
      destruct (or_lookup_props _ _ _ Eo) as (Hv & Hok' & Hc').
      assert (Hpre' : pre e' dest st).
      { split; [exact Hok'|]. split; [exact I|]. intros d Hd. destruct (HP d Hd) as (A & _ & B). split; [exact A|]. split; [exact Hc'|exact B]. }
      destruct (Hrec e' dest st r st' Hpre' H) as (I1 & X1 & Hlt & M1 & P1 & G1 & AM1 & PN1 & NF1 & R1).
      (* the contract for e' is the contract for the Or, up to the value and the class of the result *)
      specialize (G1 Hc'). repeat (split; [auto|]).
      destruct dest as [d|].
      + now rewrite <- Hv.
      + destruct R1 as [R1 R2]. split; [now rewrite <- Hv|]. cbn [res_class].
        destruct (res_class_cases _ _ _ _ Hok' R2) as [(s & -> & _)|(_ & A)]; [discriminate Hc'|exact A].
    - destruct Hpre as (Hok & I & HP). pose proof Hok as Hok2. cbn [ok_expr] in Hok2. rewrite El in Hok2.
      destruct args as [|e1 [|e2 [|e3 t]]]; try discriminate.
      apply c_or_bin_spec; [|exact H]. split; [exact Hok|]. split; [exact I|exact HP].
  Qed.

  (* the value is already on a qubit and nothing is emitted *)
  Lemma post_same e st r : Inv st -> r < st_nq st -> (compound e = true -> has_gate st r) ->
    V st r = beval env e -> res_class e r st st -> post e None st r st.
  Proof.
    intros I Hlt Hg Hv Hc. split; [exact I|]. split; [apply Ext_refl|]. split; [exact Hlt|].
    split; [auto|]. split; [auto|]. split; [exact Hg|]. split; [auto|]. split; [auto|].
    split; [intros _ Hle; lia|]. split; [exact Hv|exact Hc].
  Qed.

  (* the expression is already held by a qubit (compile_expr step 3) *)
  Lemma cached_spec e dest sym st iret r st' : compound e = true -> pre e dest st ->
    cache_get (st_cache st) e = Some iret ->
    c_expr n tbl rec e dest sym st = Ok (r, st') -> post e dest st r st'.
  Proof.
    intros Hc Hpre Hin H. pose proof Hpre as (_ & I & _).
    assert (H' : match dest with
                 | Some d => if negb (Nat.eqb iret d)
                             then let* S1 := g_cx iret d st in Ok (d, mark_ancilla iret S1)
                             else Ok (iret, st)
                 | None => Ok (iret, st)
                 end = Ok (r, st')) by (destruct e; try discriminate; cbn [c_expr] in H; now rewrite Hin in H).
    clear H. rename H' into H. apply cache_get_in in Hin. destruct dest as [d|].
    - pose proof (pre_acc _ _ _ Hpre d eq_refl) as A. pose proof A as ((P1 & P2 & P3) & _).
      assert (Hne : iret <> d) by (intros ->; now apply (P3 e)).
      rewrite (proj2 (Nat.eqb_neq iret d) Hne) in H. cbn [negb] in H.
      bind_ok H as st1 E1. injection H as <- <-.
      destruct (acc_gate KCX [iret] d st st1 I A eq_refl) as ([I1 X1 NC1 N1 _ A1 M1] & V1 & G1 & _); [|exact E1|].
      { intros c [<-|[]]. exact (i_free_cache st I e iret Hin). }
      destruct (marks_spec [iret] st1 I1) as (m & E & I2 & X2 & Hm).
      { intros w [<-|[]]. split; [|rewrite (x_free _ _ _ X1); exact (i_free_cache st I e iret Hin)].
        intros Ha. rewrite A1 in Ha. eapply has_gate_ext; [exact X1|]. exact (i_cache_gate st I e iret Hin Ha). }
      change (mark_ancilla iret st1) with (marks [iret] st1). rewrite E. clear E. rewrite M1 in Hm.
      split; [exact I2|]. split; [eapply Ext_trans; [exact X1|apply Ext_weaken; exact X2]|]. sts.
      split; [rewrite N1; exact (proj2 P1)|].
      split. { intros H. apply Hm in H as [H|[[H|[]] _]]; [exact H|congruence]. }
      split. { intros q (_ & _ & Q3) H. apply Hm in H as [H|[[<-|[]] _]]; [exact H|]. exfalso. now apply (Q3 e). }
      split; [intros _; exact G1|]. split; [intros q Ha; rewrite A1 in Ha; now left|].
      split. { intros q (_ & _ & Q3) Hn. apply NC1; [exact Hn|]. intros [E|[]]. subst q. now apply (Q3 e). }
      split; [discriminate|]. split; [reflexivity|]. change (V (set_marked m st1)) with (V st1).
      rewrite V1. cbn [forallb]. now rewrite andb_true_r, (i_cache st I e iret Hin).
    - injection H as <- <-. pose proof (i_cache_anc st I e iret Hin Hc) as Ha.
      apply (post_same e st iret I (i_cache_lt st I e iret Hin)); [|exact (i_cache st I e iret Hin)|].
      + intros _. exact (i_cache_gate st I e iret Hin Ha).
      + apply res_class_compound; [exact Hc|]. split; [exact Ha|right; now exists e].
  Qed.

  (* compile_expr, for every `sym` that does not trigger the two special cases
     (they are treated at the level of the statement) *)
  Lemma c_expr_spec e dest sym st r st' : pre e dest st ->
    (forall a, e = BNot a -> self_not a sym = false) ->
    (is_sym e = true -> match sym with Some (_, true) => False | _ => True end) ->
    c_expr n tbl rec e dest sym st = Ok (r, st') -> post e dest st r st'.
  Proof.
    intros Hpre Hself Hsym H. pose proof Hpre as (Hok & I & HP).
    destruct (compound e) eqn:Hc.
    - destruct (cache_get (st_cache st) e) as [iret|] eqn:Ec; [exact (cached_spec e dest sym st iret r st' Hc Hpre Ec H)|].
      destruct e as [b|s|a|l|l|l|c t f|a b]; try discriminate; cbn [c_expr] in H; rewrite Ec in H.
      + apply c_not_spec with (sym := sym); auto.
      + now apply c_and_spec.
      + now apply c_or_spec.
      + now apply c_xor_spec.
    - destruct e as [b|s|a|l|l|l|c t f|a b]; try discriminate. cbn [c_expr] in H.
      assert (Hd : dest = None) by (destruct dest as [d|]; [destruct (HP d eq_refl) as (_ & Hc' & _); discriminate|reflexivity]).
      subst dest.
      assert (H' : (let* q := qc_get st (NSym s) in Ok (q, st)) = Ok (r, st')).
      { unfold c_symbol in H. destruct sym as [[s' [|]]|]; [exfalso; now apply Hsym|exact H|exact H]. }
      bind_ok H' as q Eq. injection H' as <- <-. apply qc_get_ok, qm_get_in in Eq.
      apply (post_same (BSym s) st q I (i_qmap_lt st I _ _ Eq)); [discriminate|exact (i_sym st I s q Eq)|exact Eq].
  Qed.
  End WithRec.

  Theorem cexpr_spec fuel : rec_spec (cexpr fuel n tbl).
  Proof.
    induction fuel as [|f IH]; intros e dest st r st' Hpre; [discriminate|].
    cbn [cexpr]; intros H. apply (c_expr_spec (cexpr f n tbl) IH e dest None st r st' Hpre); auto.
    intros a _. now destruct a.
  Qed.

  Lemma append_objs_spec R : forall st st1,
    fold_left (fun r g => let* S' := r in append_obj g S') R (Ok st) = Ok st1 ->
    st1 = set_comp (st_comp st ++ R) (set_gates (st_gates st ++ R) st).
  Proof.
    induction R as [|g R IH]; intros st st1; cbn [fold_left].
    - intros H. injection H as <-. rewrite !app_nil_r. now destruct st.
    - cbn [bind]. unfold append_obj at 2.
      destruct (forallb (fun x => Nat.ltb x (st_nq st)) (cg_qs g) && nodupb (cg_qs g)).
      + intros H. rewrite (IH _ _ H). sts. now rewrite <- !app_assoc.
      + now rewrite (fold_bind_err (fun s g0 => append_obj g0 s)).
  Qed.

  (* inside the class no marked ancilla is ever blocked: the gates computing an
     ancilla that is not free are controlled by qubits that are not free *)
  Lemma blocked_nil st : Inv st -> blocked_of st = [].
  Proof.
    intros I0. unfold blocked_of. apply fold_left_inv; [|reflexivity]. intros b g Hc ->.
    destruct (mem_nat (tgt g) (st_marked st)) eqn:Em; cbn [andb]; [|reflexivity]. apply mem_nat_in in Em.
    assert (Hg : In g (st_gates st)) by (rewrite (i_compf st I0) in Hc; now apply filter_In in Hc).
    destruct (existsb (fun c => mem_nat c (st_free st)) (ctrls g)) eqn:Ee; [|reflexivity]. exfalso.
    apply existsb_exists in Ee as (c & Hcin & Hf). apply mem_nat_in in Hf.
    exact (i_alive st I0 g Hg (proj1 (i_marked st I0 _ Em)) (i_free_marked st I0 _ Em) c Hcin Hf).
  Qed.

  (* between two statements: nothing is marked and every ancilla has been uncomputed *)
  Definition BInv (st : cst) : Prop :=
    Inv st /\ st_marked st = [] /\ (forall q, In q (st_anc st) -> In q (st_free st)).

  (* uncomputing a set U of ancillas that have not been freed: the reverse of the gates that
     computed them, played after the circuit, returns them to zero and leaves the other qubits alone *)
  Lemma replay_live st U : Inv st ->
    (forall q, In q U -> In q (st_anc st) /\ has_gate st q /\ ~ In q (st_free st)) ->
    let f := grun (st_gates st ++ subU U (rev (st_comp st))) b0 in
    (forall q, In q U -> f q = false) /\ (forall q, ~ In q U -> f q = V st q).
  Proof.
    intros I HU f.
    (* every gate onto U is still in the computation list *)
    assert (EC : subU U (st_comp st) = subU U (st_gates st)).
    { rewrite (i_compf st I). symmetry. apply filter_two. intros g.
      destruct (mem_nat (tgt g) U) eqn:E; [|now rewrite andb_false_r].
      apply mem_nat_in, HU in E as (_ & _ & E). apply mem_nat_false in E. now rewrite E. }
    assert (Ef : forall q, f q = if mem_nat q U then b0 q else V st q).
    { unfold f. rewrite subU_rev, EC. apply replay_restores; [|exact (gates_no_self _ _ (i_gates st I))].
      apply (wp_sc (st_free st)); [exact (i_wp st I)|]. intros g Hg Ht c Hc Hcf. exfalso.
      destruct (HU _ Ht) as (Ha & _ & Hf). exact (i_alive st I g Hg Ha Hf c Hc Hcf). }
    split; intros q Hq; rewrite Ef.
    - destruct (HU q Hq) as (_ & (g & Hg & <-) & _). apply mem_nat_in in Hq. rewrite Hq. apply b0_false.
      pose proof (i_ctgt st I) as Hc. rewrite Forall_forall in Hc. exact (Hc g Hg).
    - apply mem_nat_false in Hq. now rewrite Hq.
  Qed.

  (* the inline uncompute: every marked ancilla is back to zero *)
  Lemma uncompute_spec st unc st4 : Inv st -> uncompute st = Ok (unc, st4) ->
    (forall q, In q (st_anc st) -> In q (st_free st) \/ In q (st_marked st)) ->
    BInv (upd_cache (cache_remove unc) st4).
  Proof.
    intros I0 H HB. set (st' := upd_cache (cache_remove unc) st4).
    unfold uncompute in H. rewrite (blocked_nil st I0) in H. unfold uncompute_with in H.
    rewrite sdiff_nil in H. destruct (st_marked st) as [|m0 ms] eqn:Em.
    - injection H as <- <-. split; [|split; [exact Em|]].
      + now apply Inv_cache_remove.
      + intros q Hq. destruct (HB q Hq) as [?|[]]. assumption.
    - rewrite <- Em in H, HB. set (marked := st_marked st) in *.
      set (R := filter (fun g => mem_nat (tgt g) marked) (rev (st_comp st))) in *.
      set (K := filter (fun g => negb (mem_nat (tgt g) marked)) (rev (st_comp st))) in *.
      bind_ok H as st1 E1.
      apply append_objs_spec in E1. subst st1. injection H as <- <-.
      set (unc := fold_left (fun u g => sadd (tgt g) u) R []) in *.
      assert (Hlive : forall q, In q marked -> In q (st_anc st) /\ has_gate st q /\ ~ In q (st_free st)).
      { intros q Hq. destruct (i_marked st I0 q Hq) as [Ha Hg]. exact (conj Ha (conj Hg (i_free_marked st I0 q Hq))). }
      destruct (replay_live st marked I0 Hlive) as [Hzm HV].
      change (forall q, In q marked -> V st' q = false) in Hzm.
      change (forall q, ~ In q marked -> V st' q = V st q) in HV.
      assert (HR : forall g, In g R <-> In g (st_comp st) /\ In (tgt g) marked).
      { intros g. unfold R. fold (subU marked (rev (st_comp st))). now rewrite subU_in, <- in_rev. }
      assert (HK : forall g, In g K <-> In g (st_comp st) /\ ~ In (tgt g) marked).
      { intros g. unfold K. rewrite filter_In, <- in_rev, negb_true_iff, mem_nat_false. reflexivity. }
      assert (Hmu : forall q, In q marked -> In q unc).
      { intros q Hq. destruct (Hlive q Hq) as (_ & (g & Hg & Ht) & _). apply fold_sadd_in. right. exists g.
        split; [|exact Ht]. apply HR. split; [exact Hg|now rewrite Ht]. }
      pose proof (sdiff_incl marked unc Hmu) as Hm'.
      assert (Hnm : forall k q, In (k, q) (st_qmap st) -> named k -> ~ In q marked).
      { intros k q Hin Hk Hq. exact (i_named st I0 k q Hin Hk (proj1 (Hlive q Hq))). }
      set (free' := fold_left (fun f x => sadd x f) marked (st_free st)).
      assert (Hf' : forall q, In q free' <-> In q (st_free st) \/ In q marked) by (intros q; apply fold_sadd_nat).
      assert (HRi : incl R (st_comp st)) by (intros g Hg; now apply HR in Hg).
      assert (HKi : incl (rev K) (st_comp st)) by (intros g Hg; rewrite <- in_rev in Hg; now apply HK in Hg).
      assert (HRf : forall g, In g R -> In (tgt g) free') by (intros g Hg; apply Hf'; right; now apply HR in Hg).
      assert (Hcu : forall e q, In (e, q) (cache_remove unc (st_cache st)) -> ~ In q marked).
      { intros e q Hin Hq. apply cache_remove_in in Hin as [_ Hn]. exact (Hn (Hmu q Hq)). }
      subst st'. sts. fold free'.
      split; [|split; [exact Hm'|intros q Hq; apply Hf'; now apply HB]].
      (* the entries on uncomputed qubits are evicted first *)
      destruct (Inv_cache_remove st unc I0). constructor; sts; try assumption.
      + (* i_gates *) apply Forall_app. split; [assumption|exact (incl_Forall HRi i_comp0)].
      + (* i_comp *) exact (incl_Forall HKi i_comp0).
      + (* i_tgt *) apply Forall_app. split; [assumption|exact (incl_Forall HRi i_ctgt0)].
      + (* i_ctgt *) exact (incl_Forall HKi i_ctgt0).
      + (* i_sym *) intros s q Hin. rewrite HV; [exact (i_sym0 s q Hin)|exact (Hnm (NSym s) q Hin I)].
      + (* i_true *) intros q Hin. rewrite HV; [exact (i_true0 q Hin)|exact (Hnm NTrue q Hin I)].
      + (* i_false *) intros q Hin. rewrite HV; [exact (i_false0 q Hin)|exact (Hnm NFalse q Hin I)].
      + (* i_cache *) intros e q Hin. rewrite HV; [exact (i_cache0 e q Hin)|exact (Hcu e q Hin)].
      + (* i_cache_gate *) intros e q Hin Ha. destruct (i_cache_gate0 e q Hin Ha) as (g & Hg & Ht). exists g. split; [|exact Ht].
        rewrite <- in_rev. apply HK. split; [exact Hg|]. rewrite Ht. exact (Hcu e q Hin).
      + (* i_marked *) rewrite Hm'. intros q [].
      + (* i_zero *) intros q Hle. rewrite HV; [exact (i_zero0 q Hle)|]. intros Hq. apply i_marked0 in Hq as [Hq _]. apply i_anc_lt0 in Hq. lia.
      + (* i_free_anc *) intros q Hq. apply Hf' in Hq as [Hq|Hq]; [exact (i_free_anc0 q Hq)|exact (proj1 (i_marked0 q Hq))].
      + (* i_free_cache *) intros e q Hin Hq. apply Hf' in Hq as [Hq|Hq]; [exact (i_free_cache0 e q Hin Hq)|exact (Hcu e q Hin Hq)].
      + (* i_free_marked *) rewrite Hm'. intros q [].
      + (* i_compf *) unfold K. rewrite filter_rev, rev_involutive, filter_app.
        rewrite (filter_none _ R).
        2: { intros g Hg. apply negb_false_iff. apply mem_nat_in. exact (HRf g Hg). }
        rewrite app_nil_r, i_compf0. symmetry. apply filter_two. intros g.
        now rewrite (mem_nat_or _ _ _ Hf'), negb_orb.
      + (* i_wp *) apply wp_app.
        * eapply wp_mono; [|exact i_wp0]. intros x Hx. apply Hf'. now left.
        * apply wp_all_tgt. exact HRf.
        * intros g Hg. left. exact (HRf g Hg).
      + (* i_alive *) intros g Hg Ha Hf. exfalso. apply Hf. apply Hf'. exact (HB _ Ha).
      + (* i_zfree *) intros q Hq. apply Hf' in Hq as [Hq|Hq]; [|exact (Hzm q Hq)].
        rewrite HV; [exact (i_zfree0 q Hq)|]. intros Hm. exact (i_free_marked0 q Hm Hq).
  Qed.

  (* map_qubit with promotion: the qubit leaves the ancillas (with the name it had
     as one), and the new name is bound to it *)
  Lemma map_qubit_shape nm index st : exists qm an,
    map_qubit nm index true st = set_qmap qm (set_anc an st) /\
    (forall q, In q an <-> In q (st_anc st) /\ q <> index) /\
    (forall k q, In (k, q) qm -> (k = nm /\ q = index) \/ In (k, q) (st_qmap st)).
  Proof.
    unfold map_qubit. cbn [andb]. destruct (mem_nat index (st_anc st)) eqn:Em.
    - destruct (key_by_index _ index) as [k0|]; eexists _, _; (split; [reflexivity|]);
        (split; [intros q; apply srem_in|]); intros k q Hin; sts;
        apply qm_set_in in Hin as [?|Hin]; auto. right. now apply qm_del_in in Hin.
    - apply mem_nat_false in Em. eexists _, _. split; [reflexivity|]. split.
      + intros q. split; [intros H; split; [exact H|now intros ->]|now intros [H _]].
      + intros k q Hin. sts. apply qm_set_in in Hin as [?|Hin]; auto.
  Qed.

  (* 2.2 of compile: bind the symbol to the result qubit, promoting it *)
  Lemma Inv_map_qubit s iret st :
    Inv st -> iret < st_nq st -> V st iret = env s -> ~ In iret (st_marked st) ->
    (forall e', In (e', iret) (st_cache st) -> compound e' = false) -> ~ In iret (st_free st) ->
    Inv (map_qubit (NSym s) iret true st).
  Proof.
    intros I0 Hlt Hv Hnm Hce Hnf. destruct (map_qubit_shape (NSym s) iret st) as (qm & an & -> & A & Q).
    destruct I0. constructor; sts; try assumption.
    - (* i_qmap_lt *) intros k q Hin. destruct (Q k q Hin) as [[-> ->]|Hin']; eauto.
    - (* i_sym *) intros s0 q Hin. destruct (Q _ _ Hin) as [[E ->]|Hin']; [injection E as ->; exact Hv|eauto].
    - (* i_true *) intros q Hin. destruct (Q _ _ Hin) as [[E _]|Hin']; [discriminate|eauto].
    - (* i_false *) intros q Hin. destruct (Q _ _ Hin) as [[E _]|Hin']; [discriminate|eauto].
    - (* i_named *) intros k q Hin Hk Ha. apply A in Ha as [Ha Hne]. destruct (Q _ _ Hin) as [[-> ->]|Hin']; [contradiction|].
      exact (i_named0 k q Hin' Hk Ha).
    - (* i_cache_anc *) intros e q Hin Hc. apply A. split; [eauto|]. intros ->. rewrite (Hce e Hin) in Hc. discriminate.
    - (* i_cache_gate *) intros e q Hin Ha. apply A in Ha as [Ha _]. eauto.
    - (* i_anc_lt *) intros q Ha. apply A in Ha as [Ha _]. eauto.
    - (* i_marked *) intros q Hm. destruct (i_marked0 q Hm) as (Ha & Hg). split; [|exact Hg]. apply A. split; [exact Ha|]. intros ->. contradiction.
    - (* i_free_anc *) intros q Hq. apply A. split; [eauto|]. intros ->. contradiction.
    - (* i_alive *) intros g Hg Ha Hf. apply A in Ha as [Ha _]. eauto.
  Qed.

  (* add_qubit(name).  The new qubit is first an unnamed accumulator; gates prepare
     it, then it receives a name that stands for the value it holds (TRUE, FALSE, a
     return bit that copies an argument) *)
  Lemma Inv_raw st : Inv st -> Inv (set_nq (S (st_nq st)) st).
  Proof.
    intros I. destruct I. constructor; sts; try assumption.
    - (* i_n *) exact (le_S _ _ i_n0).
    - (* i_gates *) eapply Forall_impl; [|exact i_gates0]. intros g. apply gate_ok_mono. lia.
    - (* i_comp *) eapply Forall_impl; [|exact i_comp0]. intros g. apply gate_ok_mono. lia.
    - (* i_qmap_lt *) intros k q H. apply i_qmap_lt0 in H. lia.
    - (* i_cache_lt *) intros e q H. apply i_cache_lt0 in H. lia.
    - (* i_anc_lt *) intros q H. apply i_anc_lt0 in H. lia.
    - (* i_zero *) intros q H. change (V st q = false). apply i_zero0. lia.
  Qed.

  Definition val (k : qname) : bool := match k with NSym s => env s | NTrue => true | _ => false end.

  Lemma Inv_name st k q : Inv st -> q < st_nq st -> ~ In q (st_anc st) -> V st q = val k ->
    Inv (set_qmap (qm_set (st_qmap st) k q) st).
  Proof.
    intros I Hq Ha Hv. destruct I. constructor; sts; try assumption.
    - (* i_qmap_lt *) intros k0 q0 H. apply qm_set_in in H as [[-> ->]|H]; eauto.
    - (* i_sym *) intros s q0 H. apply qm_set_in in H as [[<- ->]|H]; [exact Hv|eauto].
    - (* i_true *) intros q0 H. apply qm_set_in in H as [[<- ->]|H]; [exact Hv|eauto].
    - (* i_false *) intros q0 H. apply qm_set_in in H as [[<- ->]|H]; [exact Hv|eauto].
    - (* i_named *) intros k0 q0 H Hn. apply qm_set_in in H as [[-> ->]|H]; [exact Ha|eauto].
  Qed.

  (* qc.x / qc.cx do not look at the qubit map *)
  Lemma append_new_qmap k qs m st st' : append_new k qs (set_qmap m st) = Ok st' ->
    exists sx, append_new k qs st = Ok sx /\ st' = set_qmap m sx.
  Proof.
    unfold append_new, append_obj. sts. destruct (_ && _); [|discriminate]. intros H. injection H as <-.
    eexists. split; reflexivity.
  Qed.

  Definition is_const (e : bexp) : bool := match e with BConst _ => true | _ => false end.
  (* the statements the theorem covers: the target is not a "__" temporary, no
     symbol read is a return bit, and the right-hand side is either a compound
     expression of the covered shape, or (for a return bit only) a bare symbol or
     a constant *)
  Definition stmt_shape (se : nat * bexp) : bool :=
    negb (is_temp (fst se)) && (ok_expr (snd se) || is_const (snd se)).

  Lemma qm_get_set_same m k v : qm_get (qm_set m k v) k = Some v.
  Proof.
    assert (Ek : qname_eqb k k = true) by now apply qname_eqb_eq.
    induction m as [|[k' v'] r IH]; cbn [qm_set qm_get]; [now rewrite Ek|].
    destruct (qname_eqb k k') eqn:E; cbn [qm_get]; [now rewrite Ek|]. rewrite E. exact IH.
  Qed.

  (* what the compile_expr call of a statement s = e establishes of its result iret *)
  Definition top_post (s : nat) (st : cst) (iret : nat) (st1 : cst) : Prop :=
    Inv st1 /\ iret < st_nq st1 /\ V st1 iret = env s /\ ~ In iret (st_marked st1) /\
    (In iret (st_anc st1) -> has_gate st1 iret) /\
    st_free st1 = st_free st /\ ~ In iret (st_free st1) /\
    (forall q, In q (st_anc st1) -> In q (st_anc st) \/ q = iret \/ In q (st_marked st1)).

  (* the result is a named qubit of a state with the ancillas, free set and (no) marks of st *)
  Lemma top_named s st st1 : Inv st1 -> st_marked st1 = [] -> st_anc st1 = st_anc st -> st_free st1 = st_free st ->
    forall k q, In (k, q) (st_qmap st1) -> named k -> V st1 q = env s -> top_post s st q st1.
  Proof.
    intros I Hm Ha Hf k q Hin Hk Hv. pose proof (i_named st1 I k q Hin Hk) as Hna.
    split; [exact I|]. split; [exact (i_qmap_lt st1 I k q Hin)|]. split; [exact Hv|]. split; [now rewrite Hm|].
    split; [intros Hq; contradiction|]. split; [exact Hf|]. split; [intros Hq; now apply Hna, (i_free_anc st1 I)|].
    rewrite Ha. intros x Hx. now left.
  Qed.

  Lemma named_val st k q : Inv st -> In (k, q) (st_qmap st) -> named k -> V st q = val k.
  Proof.
    intros I H Hk. destruct k as [t|a| |]; [exact (i_sym st I t q H)|destruct Hk|exact (i_true st I q H)|exact (i_false st I q H)].
  Qed.

  (* the three shapes of a statement's result.  First: the qubit that already bears the name k *)
  Lemma top_lookup s st k q : BInv st -> named k -> qm_get (st_qmap st) k = Some q -> val k = env s ->
    top_post s st q st.
  Proof.
    intros (I & Hm & _) Hk Eq Hv. apply qm_get_in in Eq.
    apply (top_named s st st I Hm eq_refl eq_refl k q Eq Hk). now rewrite (named_val st k q I Eq Hk).
  Qed.

  (* second: a new qubit that gates prepare and that is then named k *)
  Lemma top_fresh s st k cs sx : BInv st -> named k -> Gates (st_nq st) cs (set_nq (S (st_nq st)) st) sx ->
    V sx (st_nq st) = val k -> val k = env s ->
    top_post s st (st_nq st) (set_qmap (qm_set (st_qmap st) k (st_nq st)) sx).
  Proof.
    intros (I & Hm & _) Hk [Ix Xx _ Nx Qx Ax Mx] Hv Hvs.
    apply (top_named s st _) with (k := k); sts;
      [|now rewrite Mx|exact Ax|exact (x_free _ _ _ Xx)|apply qm_get_in, qm_get_set_same|exact Hk|now rewrite <- Hvs].
    rewrite <- Qx. apply Inv_name; auto; [rewrite Nx; lia|]. rewrite Ax. intros Ha. apply (i_anc_lt st I) in Ha. lia.
  Qed.

  (* the same when one gate prepares it, applied after the name has been given *)
  Lemma top_fresh_gate s st k kd cs st2 : BInv st -> named k -> kind_ok kd (cs ++ [st_nq st]) ->
    (forall c, In c cs -> ~ In c (st_free st)) ->
    append_new kd (cs ++ [st_nq st]) (set_nq (S (st_nq st)) (set_qmap (qm_set (st_qmap st) k (st_nq st)) st)) = Ok st2 ->
    forallb (V st) cs = val k -> val k = env s -> top_post s st (st_nq st) st2.
  Proof.
    intros B Hk Hkd Hcf E2 Hv Hvs. pose proof B as (I & _).
    apply (append_new_qmap _ _ (qm_set (st_qmap st) k (st_nq st)) (set_nq (S (st_nq st)) st)) in E2 as (sx & E2 & ->).
    destruct (acc_gate kd cs _ _ sx (Inv_raw st I) (Acc_raw st I) Hkd Hcf E2) as (G & Hvx & _).
    apply (top_fresh s st k cs sx B Hk G); [|exact Hvs]. rewrite Hvx, <- Hv. change (V (set_nq (S (st_nq st)) st)) with (V st).
    rewrite (i_zero st I) by lia. apply xorb_false_l.
  Qed.

  (* third: the result of compile_expr on a compound expression *)
  Lemma top_of_post s e st iret st1 : BInv st -> ok_expr e = true -> env s = beval env e ->
    post e None st iret st1 -> top_post s st iret st1.
  Proof.
    intros (I & Hm & _) Hok Henv (I1 & X1 & Hlt & M1 & _ & G1 & AM1 & _ & _ & Hv & Hcl).
    split; [exact I1|]. split; [exact Hlt|]. split; [now rewrite Hv|].
    split; [intros Hm1; apply M1 in Hm1; now rewrite Hm in Hm1|].
    split; [intros Ha; exact (class_gate e st st1 iret Hok I1 Hcl G1 Ha)|].
    split; [exact (x_free _ _ _ X1)|]. split; [exact (class_not_free e st st1 iret Hok I I1 X1 Hcl)|exact AM1].
  Qed.

  Lemma top_expr_spec s e st iret st1 :
    BInv st -> stmt_shape (s, e) = true -> ~ In s (bsyms e) -> env s = beval env e ->
    c_expr n tbl (cexpr (fuel_for e) n tbl) e None (Some (s, isret s)) st = Ok (iret, st1) ->
    top_post s st iret st1.
  Proof.
    intros B Hsh Hns Henv H. pose proof B as (I0 & _). unfold stmt_shape in Hsh. cbn [fst snd] in Hsh.
    apply andb_true_iff in Hsh as [_ Hcase].
    assert (Hcomp : compound e = true -> ok_expr e = true -> top_post s st iret st1).
    { intros Hc Hok. apply (top_of_post s e st iret st1 B Hok Henv).
      apply (c_expr_spec (cexpr (fuel_for e) n tbl) (cexpr_spec _) e None (Some (s, isret s)) st iret st1 (pre_none e st Hok I0)); auto.
      - intros a -> . destruct a; try reflexivity. cbn [self_not]. apply Nat.eqb_neq. intros ->. apply Hns. now left.
      - intros Hs. destruct e; discriminate. }
    symmetry in Henv.
    revert H. destruct e as [b|t|a|l|l|l|c t f|a b]; cbn [ok_expr is_const orb] in Hcase; try discriminate;
      try (intros _; apply Hcomp; [reflexivity|now rewrite orb_false_r in Hcase]).
    - destruct b; cbn [c_expr]; intros H.
      + destruct (qm_get (st_qmap st) NTrue) as [q|] eqn:Eq.
        * injection H as <- <-. exact (top_lookup s st NTrue q B Logic.I Eq Henv).
        * unfold add_qubit in H. destruct (g_x (st_nq st) _) as [st2|c] eqn:E2; cbn [bind] in H; [|discriminate].
          injection H as <- <-. apply (top_fresh_gate s st NTrue (K1 BX) [] st2 B Logic.I eq_refl); [intros c []|exact E2|reflexivity|exact Henv].
      + destruct (qm_get (st_qmap st) NFalse) as [q|] eqn:Eq.
        * unfold qc_get in H. rewrite Eq in H. cbn [bind] in H. injection H as <- <-.
          exact (top_lookup s st NFalse q B Logic.I Eq Henv).
        * unfold add_qubit, qc_get in H. cbn [snd] in H. sts. rewrite qm_get_set_same in H. cbn [bind] in H.
          injection H as <- <-.
          apply (top_fresh s st NFalse [] _ B Logic.I (Gates_refl _ _ _ (Inv_raw st I0))); [|exact Henv].
          change (V st (st_nq st) = false). apply (i_zero st I0). lia.
    - cbn [c_expr c_symbol]; intros H.
      assert (Hst : s <> t) by (intros ->; apply Hns; now left).
      assert (Hplain : (let* q := qc_get st (NSym t) in Ok (q, st)) = Ok (iret, st1) -> top_post s st iret st1).
      { intros H0. bind_ok H0 as q Eq. injection H0 as <- <-. exact (top_lookup s st (NSym t) q B Logic.I (qc_get_ok _ _ _ Eq) Henv). }
      destruct (isret s) eqn:Hret; [|exact (Hplain H)].
      destruct (Nat.ltb t n || match qm_get (st_qmap st) (NSym t) with Some q => Nat.ltb q n | None => false end) eqn:Et;
        [|exact (Hplain H)].
      unfold add_qubit in H. sts. bind_ok H as src Eq. apply qc_get_ok, qm_get_in in Eq. sts.
      bind_ok H as st2 E2.
      injection H as <- <-. apply qm_set_in in Eq as [[E _]|Eq]; [congruence|].
      apply (top_fresh_gate s st (NSym s) KCX [src] st2 B Logic.I eq_refl); [|exact E2| |reflexivity].
      + intros c [<-|[]] Hf. apply (i_named st I0 (NSym t) src Eq Logic.I). now apply (i_free_anc st I0).
      + cbn [forallb val]. now rewrite (i_sym st I0 t src Eq), andb_true_r.
  Qed.

  (* one iteration of the loop of compile *)
  Lemma compile_stmt_spec s e st st' :
    BInv st -> stmt_shape (s, e) = true -> ~ In s (bsyms e) -> env s = beval env e ->
    compile_stmt n tbl is_temp isret (s, e) st = Ok st' -> BInv st'.
  Proof.
    intros B Hsh Hns Henv H. unfold compile_stmt in H.
    destruct (c_expr n tbl (cexpr (fuel_for e) n tbl) e None (Some (s, isret s)) st) as [[iret st1]|c] eqn:E1;
      cbn [bind] in H; [|discriminate].
    destruct (top_expr_spec s e st iret st1 B Hsh Hns Henv E1) as (I1 & Hlt & Hv & Hnm & Hg & Hfr & Hif & AM1).
    destruct B as (I0 & Hm0 & Hb0).
    assert (Ht : is_temp s = false).
    { unfold stmt_shape in Hsh. cbn [fst] in Hsh. apply andb_true_iff in Hsh as [Hsh _].
      now apply negb_true_iff in Hsh. }
    rewrite Ht in H. cbn [negb] in H.
    assert (I2 : Inv (upd_cache (cache_set (BSym s) iret) st1)).
    { apply Inv_cache_set; auto. discriminate. }
    set (st2 := upd_cache (cache_set (BSym s) iret) st1) in *.
    assert (I3 : Inv (map_qubit (NSym s) iret true st2)).
    { apply Inv_map_qubit; auto.
      intros e' Hin. subst st2. sts. apply cache_set_in in Hin as [[-> _]|(_ & Hne & _)]; [reflexivity|congruence]. }
    destruct (map_qubit_shape (NSym s) iret st2) as (qm & an & E3 & A & _). rewrite E3 in *. clear E3.
    set (st3 := set_qmap qm (set_anc an st2)) in *.
    bind_ok H as [unc st4] E4. injection H as <-.
    assert (HB3 : forall q, In q (st_anc st3) -> In q (st_free st3) \/ In q (st_marked st3)).
    { intros q Hq. apply A in Hq as [Hq Hne]. destruct (AM1 q Hq) as [Hq0|[->|Hqm]]; [left|contradiction|now right].
      change (In q (st_free st1)). rewrite Hfr. now apply Hb0. }
    exact (uncompute_spec st3 unc st4 I3 E4 HB3).
  Qed.

  Lemma compile_loop_spec ds : forall st st',
    BInv st -> (forall s e, In (s, e) ds -> stmt_shape (s, e) = true /\ ~ In s (bsyms e) /\ env s = beval env e) ->
    compile_loop n tbl is_temp isret ds st = Ok st' -> BInv st'.
  Proof.
    unfold compile_loop. induction ds as [|[s e] ds IH]; intros st st' B Hds H; cbn [fold_left] in H.
    - injection H as <-. exact B.
    - cbn [bind] in H. destruct (compile_stmt n tbl is_temp isret (s, e) st) as [st1|c] eqn:E1.
      + destruct (Hds s e (or_introl eq_refl)) as (A1 & A2 & A3).
        apply (IH st1 st'); [eapply compile_stmt_spec; eauto|intros s0 e0 H0; apply Hds; now right|exact H].
      + now rewrite (fold_bind_err (fun s se => compile_stmt n tbl is_temp isret se s)) in H.
  Qed.

  Lemma init_BInv orc : nopop orc = true -> (forall i, i < n -> env i = inp i) -> BInv (init_state n orc).
  Proof.
    intros Ho Henv. split; [|split; [reflexivity|intros q []]].
    assert (Hq : forall k q, In (k, q) (st_qmap (init_state n orc)) -> k = NSym q /\ q < n).
    { intros k q H. unfold init_state in H. sts. apply in_map_iff in H as (i & E & Hi). injection E as <- <-.
      apply in_seq in Hi. split; [reflexivity|lia]. }
    constructor; unfold init_state; sts; auto.
    - (* i_qmap_lt *) intros k q H. now apply Hq in H.
    - (* i_sym *) intros s q H. apply Hq in H as [E Hlt]. injection E as ->. unfold V. sts. cbn [grun fold_left]. unfold b0.
      apply Nat.ltb_lt in Hlt. rewrite Hlt. symmetry. apply Henv. now apply Nat.ltb_lt.
    - (* i_true *) intros q H. apply Hq in H as [E _]. discriminate.
    - (* i_false *) intros q H. apply Hq in H as [E _]. discriminate.
    - (* i_cache_lt *) intros e q [].
    - (* i_cache *) intros e q [].
    - (* i_cache_inj *) intros e1 e2 q [].
    - (* i_cache_gate *) intros e q [].
    - (* i_anc_lt *) intros q [].
    - (* i_marked *) intros q [].
    - (* i_zero *) intros q Hle. exact (b0_false q Hle).
    - (* i_wp *) exact Logic.I.
    - (* i_zfree *) intros q [].
  Qed.
End WithInput.

(* single-assignment expression lists: every symbol is defined once, after the
   symbols it reads; [D] = the symbols defined so far (initially the arguments) *)
Fixpoint wf_defs (D : list nat) (ds : defs) : bool :=
  match ds with
  | [] => true
  | (s, e) :: r => negb (mem_nat s D) && forallb (fun x => mem_nat x D) (bsyms e) && wf_defs (s :: D) r
  end.

Lemma run_defs_notin ds : forall env s, ~ In s (map fst ds) -> run_defs env ds s = env s.
Proof. exact (BexpTT.run_defs_notin ds). Qed.

Lemma wf_defs_targets ds : forall D, wf_defs D ds = true -> forall t, In t (map fst ds) -> ~ In t D.
Proof.
  induction ds as [|[s0 e0] ds IH]; intros D H t Ht; [destruct Ht|].
  cbn [wf_defs] in H. apply andb_true_iff in H as [H H2]. apply andb_true_iff in H as [H0 H1].
  destruct Ht as [<-|Ht].
  - apply negb_true_iff in H0. now apply mem_nat_false.
  - intros Hin. apply (IH _ H2 t Ht). now right.
Qed.

Lemma wf_defs_env ds : forall D env0, wf_defs D ds = true ->
  (forall x, In x D -> run_defs env0 ds x = env0 x) /\
  forall s e, In (s, e) ds -> ~ In s (bsyms e) /\ run_defs env0 ds s = beval (run_defs env0 ds) e.
Proof.
  induction ds as [|[s0 e0] ds IH]; intros D env0 H.
  - split; [reflexivity|intros s e []].
  - pose proof (wf_defs_targets _ _ H) as Ht.
    cbn [wf_defs] in H. apply andb_true_iff in H as [H H2]. apply andb_true_iff in H as [H0 H1].
    apply negb_true_iff in H0. apply mem_nat_false in H0.
    set (env1 := fun j => if Nat.eqb j s0 then beval env0 e0 else env0 j).
    destruct (IH (s0 :: D) env1 H2) as [K1 K2].
    assert (Hsub : forall x, In x (bsyms e0) -> In x D).
    { intros x Hx. rewrite forallb_forall in H1. apply mem_nat_in. now apply H1. }
    split.
    + intros x Hx. rewrite run_defs_cons. change (run_defs env1 ds x = env0 x). rewrite K1 by now right. unfold env1.
      destruct (Nat.eqb_spec x s0) as [->|]; [contradiction|reflexivity].
    + intros s e [E|Hin].
      * injection E as <- <-. split; [intros Hs; apply H0; now apply Hsub|].
        rewrite !run_defs_cons. change (run_defs env1 ds s0 = beval (run_defs env1 ds) e0).
        rewrite K1 by now left. unfold env1 at 1. rewrite Nat.eqb_refl.
        unfold beval. apply (geval_ext bool_alg). intros x Hx.
        rewrite K1 by (right; now apply Hsub). unfold env1.
        destruct (Nat.eqb_spec x s0) as [->|]; [exfalso; apply H0; now apply Hsub|reflexivity].
      * rewrite !run_defs_cons. change (~ In s (bsyms e) /\ run_defs env1 ds s = beval (run_defs env1 ds) e). now apply K2.
Qed.

(* the class of programs of the for-all theorem *)
Definition in_class (n : nat) (is_temp : nat -> bool) (tbl : list (bexp * bexp)) (ds : defs) : bool :=
  tbl_ok tbl && wf_defs (seq 0 n) ds && forallb (stmt_shape is_temp) ds.

Lemma compile_raw_inv n isret is_temp tbl ds orc st X :
  in_class n is_temp tbl ds = true -> nopop orc = true ->
  compile_raw n tbl is_temp isret ds orc = Ok st ->
  BInv n (asg X) (run_defs (asg X) ds) st.
Proof.
  intros Hc Ho H. unfold in_class in Hc. apply andb_true_iff in Hc as [Hc Hsh]. apply andb_true_iff in Hc as [Htbl Hwf].
  destruct (wf_defs_env ds (seq 0 n) (asg X) Hwf) as [K1 K2].
  unfold compile_raw in H.
  apply (compile_loop_spec n (asg X) (run_defs (asg X) ds) tbl Htbl isret is_temp ds (init_state n orc) st).
  - apply init_BInv; [exact Ho|]. intros i Hi. apply K1. apply in_seq. lia.
  - intros s e Hin. destruct (K2 s e Hin) as [A B]. split; [|split; assumption].
    rewrite forallb_forall in Hsh. now apply Hsh.
  - exact H.
Qed.

Definition rets_mapped (st : cst) (rets : list (nat * nat)) : Prop :=
  forall s q, In (s, q) rets -> In (NSym s, q) (st_qmap st).
Definition rets_kept (st : cst) (rs : list nat) (rets : list (nat * nat)) : Prop :=
  forall s q, In (s, q) rets -> In s rs /\ qm_get (st_qmap st) (NSym s) = Some q.
Definition out_qubits (st : cst) (rs : list nat) : list nat :=
  flat_map (fun r => match qm_get (st_qmap st) (NSym r) with Some q => [q] | None => [] end) rs.

(* an output qubit bears the name of a symbol: it is no ancilla, so it has not been uncomputed *)
Lemma out_not_free n inp env st rs q : Inv n inp env st -> In q (out_qubits st rs) -> ~ In q (st_free st).
Proof.
  intros I Hq Hf. apply in_flat_map in Hq as (r & _ & Hq).
  destruct (qm_get (st_qmap st) (NSym r)) as [q0|] eqn:Eq; [|destruct Hq]. destruct Hq as [<-|[]].
  apply qm_get_in in Eq. exact (i_named _ _ _ st I (NSym r) q0 Eq Logic.I (i_free_anc _ _ _ st I q0 Hf)).
Qed.

Definition c02_fails (n : nat) (st : cst) (ds : defs) (rets : list (nat * nat)) : Prop :=
  rets_mapped st rets /\ ~ c02_holds n (out_gates st) ds rets.

Lemma c02_fails_by_check n st ds rets d :
  rets_mapped st rets -> c02_check n (st_nq st) (out_gates st) ds rets = Some d -> d <> 0%N -> c02_fails n st ds rets.
Proof.
  intros Hr Hc Hd. split; [exact Hr|]. intros Hh.
  assert (Hall : all_classical (out_gates st) = true).
  { destruct (all_classical (out_gates st)) eqn:E; [reflexivity|]. exfalso.
    unfold c02_check, check_circuit in Hc.
    destruct (sim (tt_alg (tt_mask n)) (init_tables n (st_nq st)) (out_gates st)) as [ft|] eqn:Es; [|discriminate].
    assert (all_classical (out_gates st) = true) by (apply (sim_some (tt_alg (tt_mask n)) _ (init_tables n (st_nq st))); now exists ft).
    congruence. }
  assert (c02_check n (st_nq st) (out_gates st) ds rets = Some 0%N) by (apply c02_check_correct; now split).
  congruence.
Qed.

Definition no_temp (_ : nat) : bool := false.

(* four concrete programs with the set orders of their runs, each for one feature of the
   class or of its boundary; Prop_C02_model.v states what holds of each *)
(* y = a ; _ret = (a | y) & b : both operands of the Or sit on the same qubit *)
Definition w_alias_defs : defs := [(3, BSym 0); (4, BAnd [BSym 1; BOr [BSym 0; BSym 3]])].
Definition w_alias_orc : list oev := [OOrd [1; 2]].

(* _ret = d | ((a|b|c) & ~(a|b|c)) : the Not goes to a new qubit, because the qubit of
   its operand is in the cache *)
Definition w_nary : bexp := BOr [BSym 0; BSym 1; BSym 2].
Definition w_nary_tbl : list (bexp * bexp) := [(w_nary, BNot (BAnd [BNot (BSym 0); BNot (BSym 1); BNot (BSym 2)]))].
Definition w_nary_defs : defs := [(5, BOr [BSym 3; BAnd [w_nary; BNot w_nary]])].
Definition w_nary_orc : list oev := [OOrd [4; 5; 6]; OOrd [8; 7]; OOrd [9; 3]].

(* __t = a & b ; x = __t & d ; _ret = x ^ (__t & e) : the temporary is
   uncomputed after its first use and read again *)
Definition w_temp_defs : defs :=
  [(6, BAnd [BSym 0; BSym 1]); (7, BAnd [BSym 6; BSym 3]); (8, BXor [BSym 7; BAnd [BSym 6; BSym 4]])].
Definition w_temp_orc : list oev := [OOrd [0; 1]; OOrd [3; 5]; OOrd [4; 5]].

(* a program of the class *)
Definition w_ok_defs : defs :=
  [(5, BXor [BAnd [BSym 0; BSym 1]; BNot (BAnd [BSym 2; BSym 3])]);
   (6, BAnd [BSym 5; BOr [BSym 0; BSym 2]])].
Definition w_ok_orc : list oev := [OOrd [0; 1]; OOrd [2; 3]; OOrd [0; 2]; OOrd [4; 5]].

(* uncompute_all.  Its closure is computed by folds whose steps only ever add
   qubits to a duplicate-free list: what holds of the list is preserved step by
   step, and a fold that has not made the list longer has left it unchanged at
   every step *)

Lemma sadd_length q l : length l <= length (sadd q l).
Proof. unfold sadd. destruct (mem_nat q l); [lia|rewrite app_length; cbn; lia]. Qed.
Lemma sadd_same q l : length (sadd q l) = length l -> sadd q l = l /\ In q l.
Proof.
  unfold sadd. destruct (mem_nat q l) eqn:E; [intros _; split; [reflexivity|now apply mem_nat_in]|].
  rewrite app_length. cbn. lia.
Qed.
Lemma sadd_NoDup q l : NoDup l -> NoDup (sadd q l).
Proof.
  unfold sadd. destruct (mem_nat q l) eqn:E; [auto|]. intros H. apply mem_nat_false in E.
  rewrite <- (rev_involutive (l ++ [q])). apply NoDup_rev. rewrite rev_app_distr. cbn [rev app].
  constructor; [now rewrite <- in_rev|now apply NoDup_rev].
Qed.

Section Closure.
  Variable ok : nat -> bool.
  Variable gs : list cgate.

  (* a property of the list that adding an admissible control of a gate preserves *)
  Definition add_inv (Q : list nat -> Prop) : Prop :=
    forall g c s, In g gs -> In c (ctrls g) -> ok c = true -> Q s -> Q (sadd c s).

  Lemma close_pass_inv Q : add_inv Q -> forall s, Q s -> Q (close_pass ok gs s).
  Proof.
    intros HQ. apply fold_left_inv. intros s g Hg Hs. destruct (mem_nat (tgt g) s); [|exact Hs].
    revert s Hs. apply fold_left_inv. intros s c Hc Hs. destruct (ok c) eqn:E; [now apply (HQ g)|exact Hs].
  Qed.

  Lemma close_iter_inv Q k : add_inv Q -> forall s, Q s -> Q (close_iter k ok gs s).
  Proof.
    intros HQ. induction k as [|k IH]; intros s Hs; cbn [close_iter]; [exact Hs|].
    destruct (Nat.eqb _ _); [exact Hs|]. now apply IH, close_pass_inv.
  Qed.

  Definition closedU (X : list nat) : Prop :=
    forall g, In g gs -> In (tgt g) X -> forall c, In c (ctrls g) -> ok c = true -> In c X.

  Lemma close_pass_fix s : length s <= length (close_pass ok gs s) /\
    (length (close_pass ok gs s) = length s -> close_pass ok gs s = s /\ closedU s).
  Proof.
    assert (Hin : forall cs s, let r := fold_left (fun s c => if ok c then sadd c s else s) cs s in
              length s <= length r /\ (length r = length s -> r = s /\ forall c, In c cs -> ok c = true -> In c s)).
    { intros cs. apply fold_left_fix; intros s0 c; destruct (ok c).
      - apply sadd_length.
      - lia.
      - intros E. destruct (sadd_same c s0 E). auto.
      - intros _. split; [reflexivity|discriminate]. }
    apply (fold_left_fix _ (fun g s => In (tgt g) s -> forall c, In c (ctrls g) -> ok c = true -> In c s));
      intros s0 g; destruct (mem_nat (tgt g) s0) eqn:Em.
    - apply Hin.
    - lia.
    - intros E. destruct (proj2 (Hin (ctrls g) s0) E). auto.
    - intros _. split; [reflexivity|]. intros Ht. apply mem_nat_in in Ht. congruence.
  Qed.

  (* after more passes than there are qubits the list is closed *)
  Lemma close_iter_closed nq : add_inv (fun s => forall x, In x s -> x < nq) ->
    forall k s, NoDup s -> (forall x, In x s -> x < nq) -> nq < length s + k -> closedU (close_iter k ok gs s).
  Proof.
    intros Hb. induction k as [|k IH]; intros s Hn Hs Hk.
    - pose proof (NoDup_bounded_length nq s Hn Hs). lia.
    - cbn [close_iter]. destruct (close_pass_fix s) as [A1 A5].
      destruct (Nat.eqb_spec (length (close_pass ok gs s)) (length s)) as [E|E]; [exact (proj2 (A5 E))|].
      apply IH; [|now apply close_pass_inv|lia].
      apply (close_pass_inv (@NoDup nat)); [|exact Hn]. intros g c s0 _ _ _. apply sadd_NoDup.
  Qed.

  (* the targets of the gates that satisfy cnd, and their closure under the admissible controls:
     what the additions preserve holds of both *)
  Definition seed (cnd : cgate -> bool) : list nat :=
    fold_left (fun u g => if cnd g then sadd (tgt g) u else u) gs [].

  Lemma seed_inv cnd (Q : list nat -> Prop) : Q [] ->
    (forall g s, In g gs -> cnd g = true -> Q s -> Q (sadd (tgt g) s)) -> Q (seed cnd).
  Proof.
    intros Q0 Q1. unfold seed. apply fold_left_inv; [|exact Q0]. intros s g Hg Hs. destruct (cnd g) eqn:E; [now apply Q1|exact Hs].
  Qed.

  Lemma seed_in cnd g : In g gs -> cnd g = true -> In (tgt g) (seed cnd).
  Proof.
    intros Hg Hc. apply in_split in Hg as (l1 & l2 & Eg). unfold seed. rewrite Eg, fold_left_app. cbn [fold_left].
    apply fold_left_inv.
    - intros s g0 _ Hs. destruct (cnd g0); [apply sadd_in; now right|exact Hs].
    - rewrite Hc. apply sadd_in. now left.
  Qed.

  Lemma closure_inv cnd k (Q : list nat -> Prop) : Q [] ->
    (forall g s, In g gs -> cnd g = true -> Q s -> Q (sadd (tgt g) s)) -> add_inv Q -> Q (close_iter k ok gs (seed cnd)).
  Proof. intros Q0 Q1 Q2. apply close_iter_inv; [exact Q2|]. now apply seed_inv. Qed.

  (* the gates' qubits are below nq, so S nq passes reach the fixpoint *)
  Lemma closure_spec cnd nq : Forall (gate_ok nq) gs ->
    let unc := close_iter (S nq) ok gs (seed cnd) in
    (forall g, In g gs -> cnd g = true -> In (tgt g) unc) /\ closedU unc.
  Proof.
    intros Hok. rewrite Forall_forall in Hok. split.
    - intros g Hg Hc. apply close_iter_inv with (Q := fun s => In (tgt g) s); [|now apply seed_in].
      intros g0 c s _ _ _ Hs. apply sadd_in. now right.
    - apply (close_iter_closed nq); [| | |lia].
      + intros g c s Hg Hc _ Hs x Hx. apply sadd_in in Hx as [->|Hx]; [|now apply Hs]. eapply gate_ok_ctrls_lt; eauto.
      + apply seed_inv; [constructor|]. intros g s _ _. apply sadd_NoDup.
      + apply seed_inv; [intros x []|]. intros g s Hg _ Hs x Hx.
        apply sadd_in in Hx as [->|Hx]; [eapply gate_ok_tgt; eauto|now apply Hs].
  Qed.
End Closure.

(* uncompute_all replays in reverse the gates onto a set unc that avoids keep, contains
   every target that is neither kept nor free, and is closed under free controls *)
Lemma uncompute_all_exact keep st st' : uncompute_all keep st = Ok st' ->
  exists unc, st_gates st' = st_gates st ++ rev (subU unc (st_gates st)) /\ st_qmap st' = st_qmap st /\ st_nq st' = st_nq st /\
    (forall q, In q unc -> ~ In q keep) /\
    (Forall (gate_ok (st_nq st)) (st_gates st) ->
     (forall g, In g (st_gates st) -> ~ In (tgt g) keep -> ~ In (tgt g) (st_free st) -> In (tgt g) unc) /\
     (forall g, In g (st_gates st) -> In (tgt g) unc -> forall c, In c (ctrls g) -> In c (st_free st) -> ~ In c keep -> In c unc)).
Proof.
  intros H. unfold uncompute_all in H. cbv zeta in H.
  pose (cnd := fun g : cgate => negb (mem_nat (tgt g) keep) && negb (mem_nat (tgt g) (st_free st))).
  pose (okc := fun c : nat => mem_nat c (st_free st) && negb (mem_nat c keep)).
  pose (unc := close_iter (S (st_nq st)) okc (st_gates st) (seed (st_gates st) cnd)).
  pose (R := subU unc (rev (st_gates st))).
  change ((let* S1 := fold_left (fun r g => let* S' := r in append_obj g S') R (Ok st) in
           Ok (set_free (fold_left (fun f q => if mem_nat q (st_anc S1) then sadd q f else f) unc (st_free S1)) S1)) = Ok st') in H.
  bind_ok H as st1 E1. apply append_objs_spec in E1. injection H as <-. exists unc. rewrite E1. sts.
  split; [exact (f_equal _ (subU_rev unc (st_gates st)))|]. split; [reflexivity|]. split; [reflexivity|]. split.
  - apply (closure_inv okc (st_gates st) cnd _ (fun s => forall q, In q s -> ~ In q keep)); [intros q []| |].
    + intros g s _ Hg Hs q Hq. apply sadd_in in Hq as [->|Hq]; [|now apply Hs].
      apply andb_true_iff in Hg as [Hg _]. apply negb_true_iff in Hg. now apply mem_nat_false.
    + intros g c s _ _ Hc Hs q Hq. apply sadd_in in Hq as [->|Hq]; [|now apply Hs].
      apply andb_true_iff in Hc as [_ Hc]. apply negb_true_iff in Hc. now apply mem_nat_false.
  - intros Hok. destruct (closure_spec okc (st_gates st) cnd (st_nq st) Hok) as [U2 U3]. split.
    + intros g Hg Hk Hf. apply (U2 g Hg). unfold cnd. apply mem_nat_false in Hk, Hf. now rewrite Hk, Hf.
    + intros g Hg Ht c Hc Hf Hk. apply (U3 g Hg Ht c Hc). unfold okc. apply mem_nat_in in Hf.
      apply mem_nat_false in Hk. now rewrite Hf, Hk.
Qed.

(* in particular it only replays gates already present, and none onto a kept qubit *)
Lemma uncompute_all_spec keep st st' : uncompute_all keep st = Ok st' ->
  exists R, st_gates st' = st_gates st ++ R /\ st_qmap st' = st_qmap st /\ st_nq st' = st_nq st /\
            incl R (st_gates st) /\ forall g, In g R -> ~ In (tgt g) keep.
Proof.
  intros H. destruct (uncompute_all_exact keep st st' H) as (unc & EG & EQ & EN & Hk & _).
  exists (rev (subU unc (st_gates st))). repeat (split; [assumption|]).
  split; intros g Hg; rewrite <- in_rev in Hg; apply subU_in in Hg as [Hg Ht]; [exact Hg|exact (Hk _ Ht)].
Qed.

(* InternalCompiler.compile is the statement loop, remove_identities and, with
   uncompute = True and returns given, uncompute_all sparing the returned qubits *)
Lemma compile_split n tbl is_temp isret ds unc rs orc st :
  compile n tbl is_temp isret ds unc rs orc = Ok st ->
  exists st0, compile_raw n tbl is_temp isret ds orc = Ok st0 /\
    let st1 := set_gates (rm_id (st_gates st0)) st0 in
    match unc, rs with
    | true, Some rs' => uncompute_all (out_qubits st1 rs') st1 = Ok st
    | _, _ => st = st1
    end.
Proof.
  unfold compile, compile_raw. destruct (compile_loop n tbl is_temp isret ds (init_state n orc)) as [st0|c]; [|discriminate].
  cbn [bind]. intros H. exists st0. split; [reflexivity|].
  destruct unc; [destruct rs|]; try (now injection H as <-). exact H.
Qed.

Lemma compile_gates n tbl is_temp isret ds unc rs orc st :
  compile n tbl is_temp isret ds unc rs orc = Ok st ->
  exists st0, compile_raw n tbl is_temp isret ds orc = Ok st0 /\ incl (st_gates st) (st_gates st0).
Proof.
  intros H. destruct (compile_split _ _ _ _ _ _ _ _ _ H) as (st0 & E0 & H1). exists st0. split; [exact E0|].
  pose proof (rm_id_incl (st_gates st0)) as Hi. cbv zeta in H1.
  destruct unc; [destruct rs|]; try (subst st; exact Hi).
  apply uncompute_all_spec in H1 as (R & EG & _ & _ & HR & _). rewrite EG. sts.
  apply incl_app; [exact Hi|]. intros g Hg. apply Hi. now apply HR.
Qed.

(* in the class these are X, CX and MCX gates: the circuit is classical *)
Lemma compile_classical n isret is_temp tbl ds unc rs orc st :
  in_class n is_temp tbl ds = true -> nopop orc = true ->
  compile n tbl is_temp isret ds unc rs orc = Ok st ->
  all_classical (out_gates st) = true /\ forall f, fsim f (out_gates st) = Some (grun (st_gates st) f).
Proof.
  intros Hc Ho H. destruct (compile_gates _ _ _ _ _ _ _ _ _ H) as (st0 & E0 & Hi).
  destruct (compile_raw_inv n isret is_temp tbl ds orc st0 0%N Hc Ho E0) as [I0 _].
  assert (Hk : Forall (fun g => kind_ok (cg_kind g) (cg_qs g)) (st_gates st)).
  { apply Forall_forall. intros g Hg. pose proof (i_gates _ _ _ st0 I0) as Hf. rewrite Forall_forall in Hf.
    now apply (Hf g (Hi g Hg)). }
  split; [now apply all_classical_ok|]. now apply fsim_grun.
Qed.

(* C02 for every program of the class, every legal choice of set orders, when no
   ancilla is recycled, for both settings of uncompute: a mapped symbol's qubit
   holds the symbol's value, provided the final uncompute_all (if any) keeps it *)
Theorem compile_c02 n isret is_temp tbl ds unc rs orc st rets :
  in_class n is_temp tbl ds = true -> nopop orc = true ->
  compile n tbl is_temp isret ds unc rs orc = Ok st ->
  (forall s q, In (s, q) rets -> In (NSym s, q) (st_qmap st) /\
     (unc = true -> forall rs', rs = Some rs' -> In q (out_qubits st rs'))) ->
  all_classical (out_gates st) = true /\ c02_holds n (out_gates st) ds rets.
Proof.
  intros Hc Ho H Hr. destruct (compile_classical _ _ _ _ _ _ _ _ _ Hc Ho H) as [Hcl Hsim]. split; [exact Hcl|].
  destruct (compile_split _ _ _ _ _ _ _ _ _ H) as (st0 & E0 & H1). cbv zeta in H1.
  intros X HX. eexists. split; [apply Hsim|]. intros s q Hin. destruct (Hr s q Hin) as [Hq Hk].
  destruct (compile_raw_inv n isret is_temp tbl ds orc st0 X Hc Ho E0) as [I0 _].
  assert (Hst1 : forall q0, In (NSym s, q0) (st_qmap st0) ->
            grun (rm_id (st_gates st0)) (basis n X) q0 = run_defs (asg X) ds s).
  { intros q0 H0. rewrite (rm_id_sound (st_nq st0) _ (i_gates _ _ _ st0 I0)). exact (i_sym _ _ _ st0 I0 s q0 H0). }
  destruct unc; [destruct rs as [rs'|]|]; try (subst st; now apply Hst1).
  (* the final uncompute_all never touches a kept qubit *)
  destruct (uncompute_all_spec _ _ _ H1) as (R & EG & EQ & _ & _ & Hkeep). sts.
  specialize (Hk eq_refl rs' eq_refl). unfold out_qubits in Hk. rewrite EQ in Hk, Hq.
  rewrite EG, grun_app, grun_other by (intros g Hg Ht; apply (Hkeep g Hg); now rewrite Ht). now apply Hst1.
Qed.

(* first half of C03 for the class: no gate ever targets an argument qubit, so
   the inputs are preserved, with and without the final uncompute *)
Theorem compile_inputs_preserved n isret is_temp tbl ds unc rs orc st :
  in_class n is_temp tbl ds = true -> nopop orc = true ->
  compile n tbl is_temp isret ds unc rs orc = Ok st ->
  Forall (fun g => n <= tgt g) (st_gates st) /\
  forall X q, q < n -> grun (st_gates st) (basis n X) q = basis n X q.
Proof.
  intros Hc Ho H. destruct (compile_gates _ _ _ _ _ _ _ _ _ H) as (st0 & E0 & Hi).
  destruct (compile_raw_inv n isret is_temp tbl ds orc st0 0%N Hc Ho E0) as [I0 _].
  assert (Hgoal : forall g, In g (st_gates st) -> n <= tgt g).
  { intros g Hg. pose proof (i_tgt _ _ _ st0 I0) as Ht. rewrite Forall_forall in Ht. now apply Ht, Hi. }
  split; [now apply Forall_forall|]. intros X q Hq. apply grun_other. intros g Hg Ht. specialize (Hgoal g Hg). lia.
Qed.

(* C03 for every program of the class (when no ancilla is recycled): with
   uncompute = True the circuit preserves the inputs and returns every qubit that
   is neither an input nor an output to zero *)
Theorem compile_c03 n isret is_temp tbl ds orc rs st :
  in_class n is_temp tbl ds = true -> nopop orc = true ->
  compile n tbl is_temp isret ds true (Some rs) orc = Ok st ->
  all_classical (out_gates st) = true /\ c03_holds n (st_nq st) (out_gates st) (out_qubits st rs).
Proof.
  intros Hc Ho H. pose proof (compile_inputs_preserved n isret is_temp tbl ds true (Some rs) orc st Hc Ho H) as [_ Hinp].
  destruct (compile_classical _ _ _ _ _ _ _ _ _ Hc Ho H) as [Hcl Hsim]. split; [exact Hcl|].
  destruct (compile_split _ _ _ _ _ _ _ _ _ H) as (st0 & E0 & H1). cbv zeta in H1.
  set (st1 := set_gates (rm_id (st_gates st0)) st0) in *. set (keep := out_qubits st1 rs) in *.
  assert (HB : forall X : N, BInv n (asg X) (run_defs (asg X) ds) st0).
  { intros X. exact (compile_raw_inv n isret is_temp tbl ds orc st0 X Hc Ho E0). }
  destruct (HB 0%N) as (I00 & _ & _).
  pose proof (i_gates _ _ _ st0 I00) as Hgok.
  pose proof (rm_id_sublist (st_gates st0)) as Hsub.
  assert (Hg1 : Forall (gate_ok (st_nq st1)) (st_gates st1)) by exact (incl_Forall (rm_id_incl _) Hgok).
  destruct (uncompute_all_exact keep st1 st H1) as (unc & EG & EQ & EN & U1 & U23). destruct (U23 Hg1) as [U2 U3].
  change (st_gates st1) with (rm_id (st_gates st0)) in *. change (st_free st1) with (st_free st0) in *.
  change (st_qmap st1) with (st_qmap st0) in *. change (st_nq st1) with (st_nq st0) in *.
  assert (Hkeep : out_qubits st rs = keep) by (unfold out_qubits, keep; now rewrite EQ).
  assert (Hkf : forall q, In q keep -> ~ In q (st_free st0)) by exact (fun q => out_not_free _ _ _ st0 rs q I00).
  pose proof (gates_no_self _ _ Hg1) as Hgo.
  assert (Hsc : sc unc (rm_id (st_gates st0))).
  { apply (wp_sc (st_free st0)); [apply (wp_sublist _ _ _ Hsub); exact (i_wp _ _ _ st0 I00)|].
    intros g Hg Ht c Hcin Hcf. apply (U3 g Hg Ht c Hcin Hcf). intros Hck. now apply (Hkf c Hck). }
  intros X HX. exists (grun (st_gates st) (basis n X)). split; [apply Hsim|]. split.
  - intros q Hq. rewrite (Hinp X q Hq). unfold basis. apply Nat.ltb_lt in Hq. now rewrite Hq.
  - intros q [Hq1 Hq2] Hout. rewrite Hkeep in Hout.
    rewrite EG, (replay_restores unc _ Hsc Hgo).
    assert (Hb : basis n X q = false) by (unfold basis; destruct (Nat.ltb_spec q n); [lia|reflexivity]).
    destruct (mem_nat q unc) eqn:Eu; [exact Hb|]. apply mem_nat_false in Eu.
    destruct (HB X) as (I0 & _ & _).
    destruct (mem_nat q (st_free st0)) eqn:Ef.
    + apply mem_nat_in in Ef. rewrite (rm_id_sound (st_nq st0) _ Hgok).
      exact (i_zfree _ _ _ st0 I0 q Ef).
    + apply mem_nat_false in Ef. rewrite grun_other; [exact Hb|]. intros g Hg Ht. apply Eu. rewrite <- Ht.
      apply U2; [exact Hg|now rewrite Ht|now rewrite Ht].
Qed.
