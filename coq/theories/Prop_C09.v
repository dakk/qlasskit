(* Prop_C09.v — property C09 "Type codecs are exact and mutually inverse",
   stated against the codec model M_Codec.v for EVERY width (not only the
   shipped ones).  The proofs rest on P_Codec.v. *)
From Coq Require Import List Bool NArith Arith.
From Coq Require Import Lia.
From QV Require Import Bits M_Codec P_Codec Generated.
Import ListNotations.
Local Open Scope N_scope.

(* Qint: decode then re-encode returns the pattern *)
Theorem C09_qint_pattern_roundtrip : forall w l,
  length l = w -> qint_to_bool w (qint_from_bool w l) = l.
Proof.
  intros w l Hl. rewrite qint_to_bool_spec, qint_from_bool_spec by apply qint_from_bool_range.
  pose proof (bits_val_bound l) as Hb. rewrite Hl in Hb.
  rewrite N.mod_small by exact Hb. subst w. apply nbits_bits_val.
Qed.
Print Assumptions C09_qint_pattern_roundtrip.

Theorem C09_qint_value_roundtrip : forall w v,
  v < 2 ^ N.of_nat w -> qint_from_bool w (qint_to_bool w v) = v.
Proof. exact qint_from_to. Qed.
Print Assumptions C09_qint_value_roundtrip.

(* the encoding is the little-endian binary expansion *)
Theorem C09_qint_encoding_is_binary : forall w v,
  v < 2 ^ N.of_nat w -> qint_to_bool w v = nbits w v.
Proof. exact qint_to_bool_spec. Qed.
Print Assumptions C09_qint_encoding_is_binary.

(* compile-time constant encoding = runtime encoding *)
Theorem C09_qint_const_is_runtime : forall w v,
  (0 < w)%nat -> qint_const w v = qint_to_bool w (qint_new w v).
Proof.
  intros w v Hw. rewrite qint_const_spec by exact Hw. unfold qint_new.
  symmetry. apply qint_to_bool_spec, N.mod_lt, pow2_nz.
Qed.
Print Assumptions C09_qint_const_is_runtime.

(* amplitude vector: length 2^w, one-hot at the index whose bit k is bit k of the encoding *)
Theorem C09_qint_amplitudes : forall w v,
  v < 2 ^ N.of_nat w -> qint_amp w v = (2 ^ N.of_nat w, bits_val (qint_to_bool w v)).
Proof. exact qint_amp_onehot. Qed.
Print Assumptions C09_qint_amplitudes.

Theorem C09_qchar_pattern_roundtrip : forall l,
  length l = 8%nat -> qchar_to_bool (qchar_from_bool l) = l.
Proof.
  intros l Hl. rewrite qchar_from_bool_spec. pose proof (bits_val_bound l) as Hb. rewrite Hl in Hb.
  rewrite (qint_to_bool_spec 8 _ Hb : qchar_to_bool _ = _), <- Hl. apply nbits_bits_val.
Qed.
Print Assumptions C09_qchar_pattern_roundtrip.

Theorem C09_qchar_value_roundtrip : forall c, c < 2 ^ 8 -> qchar_from_bool (qchar_to_bool c) = c.
Proof. exact qchar_from_to. Qed.
Print Assumptions C09_qchar_value_roundtrip.

Theorem C09_qchar_const_is_runtime : forall c, c < 2 ^ 8 -> qchar_const c = qchar_to_bool c.
Proof. exact qchar_const_runtime. Qed.
Print Assumptions C09_qchar_const_is_runtime.

Theorem C09_qchar_amplitudes : forall c,
  c < 2 ^ 8 -> qchar_amp c = (2 ^ 8, bits_val (qchar_to_bool c)).
Proof. exact (qint_amp_onehot 8). Qed.
Print Assumptions C09_qchar_amplitudes.

Theorem C09_qfixed_pattern_roundtrip : forall i f l,
  length l = (i + f)%nat -> qfixed_to_bool i f (qfixed_from_bool i f l) = l.
Proof.
  intros i f v Hl. rewrite qfixed_from_bool_spec. set (ip := firstn i v). set (fp := skipn i v).
  assert (Hip : length ip = i) by (unfold ip; rewrite firstn_length; lia).
  assert (Hfp : length fp = f) by (unfold fp; rewrite skipn_length; lia).
  rewrite Hfp, qfixed_to_bool_spec.
  - rewrite <- Hip, <- Hfp, nbits_bits_val, rev_nbits_be. apply firstn_skipn.
  - rewrite <- Hip. apply bits_val_bound.
  - rewrite <- Hfp. apply be_val_bound.
Qed.
Print Assumptions C09_qfixed_pattern_roundtrip.

Theorem C09_qfixed_value_roundtrip : forall i f n,
  n < 2 ^ N.of_nat (i + f) -> qfixed_from_bool i f (qfixed_to_bool i f (mkdy n f)) = mkdy n f.
Proof. exact qfixed_from_to. Qed.
Print Assumptions C09_qfixed_value_roundtrip.

Theorem C09_qfixed_const_is_runtime : forall i f x, qfixed_const i f x = qfixed_to_bool i f x.
Proof. reflexivity. Qed.
Print Assumptions C09_qfixed_const_is_runtime.

Theorem C09_qfixed_amplitudes : forall i f x,
  qfixed_amp i f x = (2 ^ N.of_nat (i + f), bits_val (qfixed_to_bool i f x)).
Proof. intros i f x. unfold qfixed_amp. now rewrite py_int2_rev_string. Qed.
Print Assumptions C09_qfixed_amplitudes.

(* nested Tuple/Qlist/Qmatrix types: decoding the measured string (the reversed
   concatenation of the element encodings) returns the value *)
Theorem C09_nested_decode_inverts_encode : forall t v bits,
  wf_val t v = true -> val_to_bin t v = Some bits ->
  length bits = ty_size t /\ decode_output t (rev bits) = Some v.
Proof. exact decode_output_encode. Qed.
Print Assumptions C09_nested_decode_inverts_encode.

(* constant type inference for ints picks the first listed width that fits,
   and encodes the value exactly *)
Theorem C09_const_to_qtype_int : forall v w bits,
  const_to_qtype_int v = Some (w, bits) ->
  In w const_widths /\ v < 2 ^ N.of_nat w /\ bits = nbits w v /\
  (forall pre post, const_widths = pre ++ w :: post -> ~ In w pre ->
     Forall (fun w' => 2 ^ N.of_nat w' <= v) pre).
Proof.
  intros v w bits H. apply const_int_search_spec; [|exact H].
  repeat constructor.
Qed.
Print Assumptions C09_const_to_qtype_int.

(* side conditions on the tables read from /repo on this run *)
Theorem C09_shipped_widths_positive :
  forallb (fun w => 0 <? w)%nat shipped_qint = true /\
  forallb (fun p => (0 <? fst p + snd p)%nat) shipped_qfixed = true /\
  src_const_widths = const_widths.
Proof. vm_compute. repeat split; reflexivity. Qed.
Print Assumptions C09_shipped_widths_positive.

(* non-vacuity: the hypotheses are met by concrete non-trivial values *)
Example C09_example_nested :
  let t := TTuple [TQint 4; TTuple [TBool; TQfixed 2 2]; TQchar] in
  let v := VTuple [VInt 11; VTuple [VBool true; VFix (mkdy 13 2)]; VChar 65] in
  wf_val t v = true /\
  exists bits, val_to_bin t v = Some bits /\ decode_output t (rev bits) = Some v.
Proof. split; [reflexivity|]. eexists. split; reflexivity. Qed.
