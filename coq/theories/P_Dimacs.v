(* P_Dimacs.v — about the model of py2bexp (M_Dimacs.v).  num / unnum: a bijection between the
   symbols of `order` and the numbers 1 .. nvars.  Then the ladder literal -> clause -> clause
   list: each step gives the printed numbers, that they are in range, and the same truth value
   under senv.  Last, the order in which getmembers lists the functions of a file. *)
From Coq Require Import List Bool NArith ZArith Arith Lia String Ascii Sorted.
From QV Require Import Bexp BexpTT M_Dimacs.
Import ListNotations.
Local Open Scope Z_scope.

Lemma index_of_some i order : forall k, index_of i order = Some k ->
  (k < List.length order)%nat /\ nth k order O = i.
Proof.
  induction order as [|x r IH]; intros k H; cbn [index_of] in H; [discriminate|].
  destruct (Nat.eqb_spec x i) as [->|Hne].
  - injection H as <-. cbn. split; [lia|reflexivity].
  - destruct (index_of i r) as [k'|] eqn:E; [|discriminate]. cbn in H. injection H as <-.
    destruct (IH k' eq_refl) as [Hl Hn]. cbn [List.length nth]. split; [lia|exact Hn].
Qed.

Lemma index_of_in i order : In i order -> exists k, index_of i order = Some k.
Proof.
  induction order as [|x r IH]; intros H; [destruct H|]. cbn [index_of].
  destruct (Nat.eqb_spec x i) as [->|Hne]; [now exists O|].
  destruct H as [H|H]; [congruence|]. destruct (IH H) as [k ->]. now exists (S k).
Qed.

Lemma index_of_notin i order : ~ In i order -> index_of i order = None.
Proof.
  induction order as [|x r IH]; intros H; [reflexivity|]. cbn [index_of].
  destruct (Nat.eqb_spec x i) as [->|Hne]; [exfalso; apply H; now left|].
  rewrite IH; [reflexivity|]. intros Hi; apply H; now right.
Qed.

Lemma index_of_nth order : NoDup order -> forall k, (k < List.length order)%nat ->
  index_of (nth k order O) order = Some k.
Proof.
  induction 1 as [|x r Hx Hnd IH]; intros k Hk; cbn [List.length] in Hk; [lia|].
  destruct k as [|k]; cbn [nth index_of].
  - now rewrite Nat.eqb_refl.
  - destruct (Nat.eqb_spec x (nth k r O)) as [->|Hne].
    + exfalso. apply Hx. apply nth_In. lia.
    + rewrite IH by lia. reflexivity.
Qed.

(* the number given to symbol i (0 when it has none) *)
Definition num (order : list nat) (i : nat) : nat :=
  match var_num order i with Some z => Z.to_nat z | None => O end.
(* the symbol carrying number k *)
Definition unnum (order : list nat) (k : nat) : nat := nth (k - 1) order O.

Lemma num_in order i : In i order ->
  exists k, index_of i order = Some k /\ num order i = S k /\ (S k <= List.length order)%nat.
Proof.
  intros H. destruct (index_of_in i order H) as [k Hk]. exists k. split; [exact Hk|].
  unfold num, var_num. rewrite Hk. cbn [option_map]. rewrite Nat2Z.id.
  destruct (index_of_some _ _ _ Hk). split; [reflexivity|lia].
Qed.

Lemma unnum_num order i : In i order -> unnum order (num order i) = i.
Proof.
  intros H. destruct (num_in order i H) as [k [Hk [-> _]]]. unfold unnum.
  replace (S k - 1)%nat with k by lia. now destruct (index_of_some _ _ _ Hk).
Qed.

Lemma num_unnum order k : NoDup order -> (1 <= k <= List.length order)%nat ->
  num order (unnum order k) = k.
Proof.
  intros Hnd Hk. unfold num, var_num, unnum. rewrite index_of_nth by (assumption || lia).
  cbn [option_map]. rewrite Nat2Z.id. lia.
Qed.

Lemma num_range order i : In i order -> (1 <= num order i <= List.length order)%nat.
Proof. intros H. destruct (num_in order i H) as [k [_ [-> Hl]]]. lia. Qed.

Lemma num_injective order i j : In i order -> In j order -> num order i = num order j -> i = j.
Proof. intros Hi Hj H. rewrite <- (unnum_num order i Hi), <- (unnum_num order j Hj). now rewrite H. Qed.

Definition senv (order : list nat) (s : nat -> bool) : nat -> bool := fun i => s (num order i).

Lemma lit_ok order l : is_lit l = true -> incl (bsyms l) order ->
  exists z, lit_num order l = Some z /\ lit_in_range (List.length order) z = true /\
            forall s, lit_sat s z = beval (senv order s) l.
Proof.
  intros Hl Hin.
  destruct l as [b|i|e|?|?|?|? ? ?|? ?]; try discriminate; [|destruct e as [b|i|?|?|?|?|? ? ?|? ?]; try discriminate].
  (* a symbol and a negated symbol: the number k+1 of the symbol, with its sign *)
  all: destruct (num_in order i) as (k & Hk & Hn & Hr); [apply Hin; now left|].
  all: unfold lit_num, var_num; rewrite Hk; cbn [option_map]; eexists; split; [reflexivity|].
  all: unfold lit_in_range, lit_sat; split;
    [apply andb_true_iff; split; [apply negb_true_iff, Z.eqb_neq|apply Z.leb_le]; lia|intros s].
  - replace (0 <? Z.of_nat (S k)) with true by (symmetry; apply Z.ltb_lt; lia).
    rewrite Nat2Z.id, beval_sym. unfold senv. now rewrite Hn.
  - replace (0 <? - Z.of_nat (S k)) with false by (symmetry; apply Z.ltb_ge; lia).
    rewrite Z.opp_involutive, Nat2Z.id, beval_not, beval_sym. unfold senv. now rewrite Hn.
Qed.

Lemma lits_ok order l : forallb is_lit l = true -> incl (flat_map bsyms l) order ->
  exists zs, mapM (lit_num order) l = Some zs /\ forallb (lit_in_range (List.length order)) zs = true /\
             forall s, clause_sat s zs = existsb (beval (senv order s)) l.
Proof.
  induction l as [|x r IH]; intros Hl Hin.
  - exists []. repeat split.
  - cbn [forallb] in Hl. apply andb_true_iff in Hl as [Hx Hr]. cbn [flat_map] in Hin.
    destruct (lit_ok order x Hx) as [z [Hz [Hzr Hzs]]].
    { intros i Hi. apply Hin, in_or_app. now left. }
    destruct (IH Hr) as [zs [Hzs1 [Hzs2 Hzs3]]].
    { intros i Hi. apply Hin, in_or_app. now right. }
    exists (z :: zs). cbn [mapM]. rewrite Hz, Hzs1. split; [reflexivity|]. split.
    + cbn [forallb]. now rewrite Hzr, Hzs2.
    + intros s. unfold clause_sat in *. cbn [existsb]. now rewrite Hzs, Hzs3.
Qed.

(* the literals the fixed extraction takes from a clause *)
Lemma lits_fixed_shape c : is_clause c = true ->
  forallb is_lit (lits_fixed c) = true /\
  (forall env, beval env c = existsb (beval env) (lits_fixed c)) /\
  incl (flat_map bsyms (lits_fixed c)) (bsyms c).
Proof.
  intros H. destruct c as [b|i|e|l|l|l|? ? ?|? ?]; try discriminate; cbn [lits_fixed].
  - destruct b; [discriminate|]. split; [reflexivity|]. split; [reflexivity|apply incl_refl].
  - split; [reflexivity|]. split; [intros env; symmetry; apply orb_false_r|apply incl_refl].
  - cbn [forallb existsb flat_map]. rewrite app_nil_r. split; [apply andb_true_iff; now split|].
    split; [intros env; symmetry; apply orb_false_r|apply incl_refl].
  - split; [exact H|]. split; [intros env; apply beval_or|apply incl_refl].
Qed.

Lemma clause_ok order c : is_clause c = true -> incl (bsyms c) order ->
  exists zs, mapM (lit_num order) (lits_fixed c) = Some zs /\
             forallb (lit_in_range (List.length order)) zs = true /\
             forall s, clause_sat s zs = beval (senv order s) c.
Proof.
  intros Hc Hin. destruct (lits_fixed_shape c Hc) as (Hl & Hev & Hs).
  destruct (lits_ok order (lits_fixed c) Hl) as (zs & H1 & H2 & H3); [eapply incl_tran; eassumption|].
  exists zs. split; [exact H1|]. split; [exact H2|]. intros s. now rewrite H3, Hev.
Qed.

Lemma clauses_ok order l : forallb is_clause l = true -> incl (flat_map bsyms l) order ->
  exists cls, mapM (fun c => mapM (lit_num order) (lits_fixed c)) l = Some cls /\
              List.length cls = List.length l /\
              well_numbered (List.length order) cls = true /\
              forall s, dimacs_sat s cls = forallb (beval (senv order s)) l.
Proof.
  induction l as [|x r IH]; intros Hl Hin.
  - exists []. repeat split.
  - cbn [forallb] in Hl. apply andb_true_iff in Hl as [Hx Hr]. cbn [flat_map] in Hin.
    destruct (clause_ok order x Hx) as [zs [Hz [Hzr Hzs]]].
    { intros i Hi. apply Hin, in_or_app. now left. }
    destruct (IH Hr) as [cls [H1 [H2 [H3 H4]]]].
    { intros i Hi. apply Hin, in_or_app. now right. }
    exists (zs :: cls). cbn [mapM]. rewrite Hz, H1. split; [reflexivity|]. split; [cbn; now rewrite H2|]. split.
    + unfold well_numbered in *. cbn [forallb]. now rewrite Hzr, H3.
    + intros s. unfold dimacs_sat in *. cbn [forallb]. now rewrite Hzs, H4.
Qed.

(* the clauses the fixed extraction takes from an expression in CNF shape *)
Lemma clauses_fixed_shape cnf : cnf_shape cnf = true ->
  forallb is_clause (clauses_fixed cnf) = true /\
  (forall env, beval env cnf = forallb (beval env) (clauses_fixed cnf)) /\
  incl (flat_map bsyms (clauses_fixed cnf)) (bsyms cnf).
Proof.
  intros H. destruct cnf as [[|]|i|e|l|l|l|? ? ?|? ?]; try discriminate; cbn [clauses_fixed].
  1: { split; [reflexivity|]. split; [reflexivity|apply incl_refl]. }
  4: { split; [exact H|]. split; [intros env; apply beval_and|apply incl_refl]. }
  (* the other shapes are one clause *)
  all: cbn [forallb flat_map]; rewrite app_nil_r; split; [apply andb_true_iff; now split|];
    split; [intros env; symmetry; apply andb_true_r|apply incl_refl].
Qed.

(* the extraction before fix 287dcaa (to_dimacs_today) agrees with the repaired one on a
   conjunction of two or more clauses none of which is a constant *)
(* the printed clause list of an expression in CNF shape; `order` need not be duplicate-free:
   a symbol is numbered by its first position *)
Lemma dimacs_models cnf order : cnf_shape cnf = true -> incl (bsyms cnf) order ->
  exists cls,
    to_dimacs_fixed cnf order = Some (List.length order, List.length cls, cls) /\
    List.length cls = List.length (clauses_fixed cnf) /\
    well_numbered (List.length order) cls = true /\
    (forall s, dimacs_sat s cls = beval (fun i => s (num order i)) cnf) /\
    (forall env, dimacs_sat (fun k => env (unnum order k)) cls = beval env cnf).
Proof.
  intros Hs Hin.
  destruct (clauses_fixed_shape cnf Hs) as [Hc [Hev Hsy]].
  destruct (clauses_ok order (clauses_fixed cnf) Hc) as [cls [H1 [H2 [H3 H4]]]].
  { intros i Hi. apply Hin, Hsy, Hi. }
  exists cls. unfold to_dimacs_fixed. rewrite H1. split; [reflexivity|]. split; [exact H2|]. split; [exact H3|].
  assert (Hnum : forall s, dimacs_sat s cls = beval (fun i => s (num order i)) cnf).
  { intros s. rewrite H4, Hev. reflexivity. }
  split; [exact Hnum|].
  intros env. rewrite Hnum. apply beval_syms_ext. intros i Hi.
  now rewrite unnum_num by (apply Hin, Hi).
Qed.

Definition is_clause_nf (c : bexp) : bool :=
  match c with BConst _ => false | _ => is_clause c end.

Lemma lits_today_fixed c : is_clause_nf c = true -> lits_today c = lits_fixed c.
Proof. destruct c as [b|i|e|l|l|l|? ? ?|? ?]; try discriminate; reflexivity. Qed.

Lemma mapM_ext {A B} (f g : A -> option B) l : (forall x, In x l -> f x = g x) -> mapM f l = mapM g l.
Proof.
  induction l as [|x r IH]; intros H; [reflexivity|]. cbn [mapM].
  rewrite (H x) by now left. rewrite IH; [reflexivity|]. intros y Hy. apply H. now right.
Qed.

Lemma run_defs_in ds : forall env s e, NoDup (map fst ds) -> In (s, e) ds ->
  (forall i, In i (bsyms e) -> ~ In i (map fst ds)) -> run_defs env ds s = beval env e.
Proof.
  induction ds as [|[s0 e0] r IH]; intros env s e Hnd Hin Hfree; [destruct Hin|].
  cbn [map fst] in Hnd, Hfree. inversion Hnd as [|? ? Hn0 Hnd']; subst.
  rewrite run_defs_cons. destruct Hin as [Heq|Hin].
  - injection Heq as -> ->. rewrite run_defs_notin by exact Hn0. now rewrite Nat.eqb_refl.
  - rewrite (IH _ s e Hnd' Hin).
    + apply beval_syms_ext. intros i Hi.
      destruct (Nat.eqb_spec i s0) as [->|]; [|reflexivity]. exfalso. apply (Hfree s0 Hi). now left.
    + intros i Hi Hr. apply (Hfree i Hi). now right.
Qed.

Section SelectLemmas.
  Context {A : Type}.
  Implicit Types l : list (string * A).

  Lemma find_last_app l n x : find_last_qlassf (l ++ [(n, x)]) = Some x.
  Proof. unfold find_last_qlassf. now rewrite rev_app_distr. Qed.

  Lemma find_named_in l : forall n x, NoDup (map fst l) -> In (n, x) l -> find_named n l = Some x.
  Proof.
    unfold find_named. induction l as [|[m y] r IH]; intros n x Hnd Hin; [destruct Hin|].
    cbn [find fst]. cbn [map fst] in Hnd. inversion Hnd as [|? ? Hm Hnd']; subst.
    destruct Hin as [Heq|Hin].
    - injection Heq as -> ->. now rewrite String.eqb_refl.
    - destruct (String.eqb_spec m n) as [->|Hne].
      + exfalso. apply Hm. apply in_map_iff. now exists (n, x).
      + now apply IH.
  Qed.

  Lemma find_named_absent l n : ~ In n (map fst l) -> find_named n l = None.
  Proof.
    unfold find_named. induction l as [|[m y] r IH]; intros H; [reflexivity|].
    cbn [find fst]. cbn [map fst] in H. destruct (String.eqb_spec m n) as [->|Hne].
    - exfalso. apply H. now left.
    - apply IH. intros Hr. apply H. now right.
  Qed.

  (* no option: the last member of the getmembers list *)
  Lemma select_members_default_lemma l n x : select_members None (l ++ [(n, x)]) = Some x.
  Proof. apply find_last_app. Qed.

  (* getmembers sorts by name (strictly: one binding per name) *)
  Definition str_ltb (a b : string) : bool := match String.compare a b with Lt => true | _ => false end.

  Lemma ascii_compare_lt_trans a b c : Ascii.compare a b = Lt -> Ascii.compare b c = Lt -> Ascii.compare a c = Lt.
  Proof. unfold Ascii.compare. rewrite !N.compare_lt_iff. lia. Qed.

  Lemma str_lt_trans : forall a b c, String.compare a b = Lt -> String.compare b c = Lt -> String.compare a c = Lt.
  Proof.
    induction a as [|x a IH]; intros b c Hab Hbc.
    - destruct b as [|y b]; [discriminate|]. destruct c as [|z c]; [discriminate|reflexivity].
    - destruct b as [|y b]; [discriminate|]. destruct c as [|z c]; [discriminate|].
      cbn [String.compare] in *.
      destruct (Ascii.compare x y) eqn:Exy; try discriminate.
      + apply Ascii.compare_eq_iff in Exy. subst y.
        destruct (Ascii.compare x z) eqn:Exz; try discriminate; [|reflexivity]. now apply (IH b c).
      + destruct (Ascii.compare y z) eqn:Eyz; try discriminate.
        * apply Ascii.compare_eq_iff in Eyz. subst z. now rewrite Exy.
        * now rewrite (ascii_compare_lt_trans x y z Exy Eyz).
  Qed.

  Definition name_lt (p q : string * A) : Prop := String.compare (fst p) (fst q) = Lt.

  Lemma insert_member_Forall (P : string * A -> Prop) p l :
    P p -> Forall P l -> Forall P (insert_member p l).
  Proof.
    intros Hp. induction 1 as [|q r Hq Hr IH]; cbn [insert_member]; [now constructor|].
    destruct (String.eqb (fst p) (fst q)); [now constructor|].
    destruct (str_leb (fst p) (fst q)); repeat constructor; assumption.
  Qed.

  Lemma insert_member_sorted p l :
    StronglySorted name_lt l -> StronglySorted name_lt (insert_member p l).
  Proof.
    induction 1 as [|q r Hsr IH Hall]; cbn [insert_member]; [repeat constructor|].
    destruct (String.eqb_spec (fst p) (fst q)) as [Heq|Hne].
    - (* p takes the place of q, whose name it has *)
      constructor; [exact Hsr|]. unfold name_lt in *. now rewrite Heq.
    - unfold str_leb. destruct (String.compare (fst p) (fst q)) eqn:Ec.
      + apply String.compare_eq_iff in Ec. contradiction.
      + constructor; [now constructor|]. constructor; [exact Ec|].
        eapply Forall_impl; [|exact Hall]. intros y. apply str_lt_trans, Ec.
      + constructor; [exact IH|]. apply insert_member_Forall; [|exact Hall].
        unfold name_lt. now rewrite String.compare_antisym, Ec.
  Qed.

  Lemma find_last_some l x : find_last_qlassf l = Some x -> exists l' n, l = l' ++ [(n, x)].
  Proof.
    unfold find_last_qlassf. destruct (rev l) as [|[n y] r] eqn:E; [discriminate|].
    cbn [snd]. intros [= ->]. exists (rev r), n. now rewrite <- (rev_involutive l), E.
  Qed.

  Lemma sorted_below_last (R : string * A -> string * A -> Prop) a l :
    StronglySorted R (l ++ [a]) -> Forall (fun q => R q a) l.
  Proof.
    induction l as [|q l IH]; cbn [app]; intros H; [constructor|].
    apply StronglySorted_inv in H as [Hs Hall]. constructor; [|exact (IH Hs)].
    rewrite Forall_forall in Hall. apply Hall, in_elt.
  Qed.
End SelectLemmas.
