(* Prop_C07.v — "Calling one compiled function from another is function
   composition", stated on the model of bind_function / the call site (M_Call.v)
   for every expression, every argument shape and every assignment. *)
From Coq Require Import List Bool NArith Arith.
From QV Require Import Bexp BexpTT M_Call P_Call.
Import ListNotations.

(* substitution lemma: substituting expressions for symbols = evaluating in the
   environment that binds those symbols to the expressions' values *)
Theorem C07_substitution : forall rho s e,
  beval rho (bsubst s e) = beval (senv rho s) e.
Proof. exact bsubst_spec. Qed.
Print Assumptions C07_substitution.

(* alpha-renaming with the callee prefix does not change meaning *)
Theorem C07_renaming : forall rho r e, beval rho (brename r e) = beval (fun i => rho (r i)) e.
Proof. intros rho r e. unfold brename. rewrite bsubst_spec. reflexivity. Qed.
Print Assumptions C07_renaming.

(* compression to return expressions = running the callee's definition list *)
Theorem C07_compress_is_run : forall rho ds s e,
  In (s, e) (compress_go [] ds) ->
  exists pre post e0, ds = pre ++ (s, e0) :: post /\ beval rho e = run_defs rho (pre ++ [(s, e0)]) s.
Proof.
  intros rho ds s e Hin. destruct (compress_go_run rho ds [] s e Hin) as (pre & post & e0 & Hds & Hev).
  exists pre, post, e0. split; [exact Hds|].
  rewrite Hev. apply run_defs_ext. intros j. reflexivity.
Qed.
Print Assumptions C07_compress_is_run.

(* the caller's bits are the callee's return function applied to the VALUES of the actuals *)
Theorem C07_call_is_composition : forall rho formals actuals rets,
  map (beval rho) (call_site formals actuals rets) =
  map (fun se => beval (bind_formals rho formals actuals) (snd se)) rets.
Proof. exact call_is_composition. Qed.
Print Assumptions C07_call_is_composition.

(* ... positionally, whatever the actuals are (repeated, swapped, named like a formal) *)
Theorem C07_formals_bound_positionally : forall rho formals actuals k f a,
  NoDup formals -> length formals = length actuals ->
  nth_error formals k = Some f -> nth_error actuals k = Some a ->
  bind_formals rho formals actuals f = beval rho a.
Proof.
  intros rho formals actuals k f a Hnd _ Hf Ha. unfold bind_formals, senv.
  rewrite (assoc_combine_nth formals actuals k f Hnd Hf), Ha. reflexivity.
Qed.
Print Assumptions C07_formals_bound_positionally.

Theorem C07_other_symbols_untouched : forall rho formals actuals i,
  length formals = length actuals -> ~ In i formals -> bind_formals rho formals actuals i = rho i.
Proof.
  intros rho formals actuals i _ Hnin. unfold bind_formals, senv. rewrite assoc_not_in; [reflexivity|].
  intros Hc. apply Hnin. apply in_map_iff in Hc as ([a b] & Heq & Hin). cbn [fst] in Heq. subst a.
  eapply in_combine_l; eauto.
Qed.
Print Assumptions C07_other_symbols_untouched.

(* non-vacuity: both(x, y) = x & ~y called as both(b, a) with caller symbols a=0, b=1,
   formals x=10, y=11: the caller's bit is b & ~a *)
Example C07_example_swapped :
  let rets := [(12%nat, BAnd [BSym 10; BNot (BSym 11)])] in
  call_site [10; 11]%nat [BSym 1; BSym 0] rets = [BAnd [BSym 1; BNot (BSym 0)]].
Proof. reflexivity. Qed.
(* an actual that is itself named like a formal: simultaneous substitution keeps it *)
Example C07_example_clash :
  call_site [10; 11]%nat [BSym 11; BSym 0] [(12%nat, BAnd [BSym 10; BNot (BSym 11)])]
  = [BAnd [BSym 11; BNot (BSym 0)]].
Proof. reflexivity. Qed.
