(* Chk_Export.v — functions evaluated (vm_compute) by harness/c13.py on what the
   exporters of the implementation produced for one circuit: the four QASM
   texts (version 3 / 2 x gate / circuit), and the operation lists read back
   from the Qiskit, Cirq and Sympy objects. *)
From Coq Require Import List Bool NArith ZArith Arith String Ascii.
From QV Require Import Circ M_Export.
Import ListNotations.
Local Open Scope string_scope.

Definition str (l : list N) : string := string_of_list_ascii (map ascii_of_N l).

Definition opt_str_eqb (a b : option string) : bool :=
  match a, b with
  | Some x, Some y => String.eqb x y
  | None, None => true
  | _, _ => false
  end.

(* 0: the text is the patched printer's; 1: it is today's printer's (and differs
   from the patched one); 99: neither *)
Definition qasm_verdict (ver3 gmode : bool) name n qm gl (obs : option string) : N :=
  if opt_str_eqb (qasm_export true ver3 gmode name n qm gl) obs then 0%N
  else if opt_str_eqb (qasm_export false ver3 gmode name n qm gl) obs then 1%N
  else 99%N.

Fixpoint list_nat_eqb (a b : list nat) : bool :=
  match a, b with
  | [], [] => true
  | x :: a', y :: b' => Nat.eqb x y && list_nat_eqb a' b'
  | _, _ => false
  end.
Definition opt_s_eqb (a b : option string) := opt_str_eqb a b.
Fixpoint pgates_eqb (a b : list pgate) : bool :=
  match a, b with
  | [], [] => true
  | (n1, p1, q1) :: a', (n2, p2, q2) :: b' =>
      String.eqb n1 n2 && opt_s_eqb p1 p2 && list_nat_eqb q1 q2 && pgates_eqb a' b'
  | _, _ => false
  end.
Fixpoint strs_eqb (a b : list string) : bool :=
  match a, b with
  | [], [] => true
  | x :: a', y :: b' => String.eqb x y && strs_eqb a' b'
  | _, _ => false
  end.

(* the property, decided on the implementation's own text by the parser of
   M_Export.v: the text parses, declares exactly one formal per qubit, its
   gate lines are the circuit's gates (name, printed phase, operand = position
   of the qubit among the formals = qubit index), and in circuit mode the gate
   is applied to q[0..n-1] *)
Definition qasm_prop_ok (gmode : bool) (name : string) (n : nat) (gl : list xgate)
           (model : option string) (obs : option string) : bool :=
  match obs with
  | None => match model with None => true | Some _ => false end
  | Some t =>
    match parse_qasm t with
    | None => false
    | Some p =>
      String.eqb (p_name p) name && Nat.eqb (List.length (p_formals p)) n &&
      pgates_eqb (p_gates p) (expected_gates gl) &&
      (match p_call p with
       | None => gmode
       | Some (c, args) => negb gmode && String.eqb c name && strs_eqb args (map actual (seq 0 n))
       end)
    end
  end.

(* ---- operation lists ---- *)
Definition base_eqb (a b : base) : bool :=
  match a, b with
  | BI, BI | BX, BX | BY, BY | BZ, BZ | BH, BH | BS, BS | BT, BT | BP, BP | BSwap, BSwap => true
  | _, _ => false
  end.
Definition par_eqb (a b : option (Z * N)) : bool :=
  match a, b with
  | None, None => true
  | Some (z1, d1), Some (z2, d2) => Z.eqb z1 z2 && N.eqb d1 d2
  | _, _ => false
  end.
Definition xop_eqb (a b : xop) : bool :=
  match a, b with
  | XBar, XBar => true
  | XOp c1 b1 q1 p1, XOp c2 b2 q2 p2 =>
      Nat.eqb c1 c2 && base_eqb b1 b2 && list_nat_eqb q1 q2 && par_eqb p1 p2
  | _, _ => false
  end.
Fixpoint xops_eqb (a b : list xop) : bool :=
  match a, b with
  | [], [] => true
  | x :: a', y :: b' => xop_eqb x y && xops_eqb a' b'
  | _, _ => false
  end.
Definition xres_eqb (a b : xres (list xop)) : bool :=
  match a, b with
  | XOk x, XOk y => xops_eqb x y
  | XErr, XErr => true
  | _, _ => false
  end.

(* sympy's Mul cancels adjacent equal self-inverse gates (X*X = 1, also after
   earlier cancellations): both sides are compared after that reduction *)
Fixpoint nf_go (stack : list xop) (l : list xop) : list xop :=
  match l with
  | [] => rev stack
  | o :: r => match stack with
              | t :: s' => if xop_eqb t o then nf_go s' r else nf_go (o :: stack) r
              | [] => nf_go [o] r
              end
  end.
Definition nf (l : list xop) : list xop := nf_go [] l.
Definition xres_nf (a : xres (list xop)) : xres (list xop) :=
  match a with XOk x => XOk (nf x) | XErr => XErr end.

(* qiskit's to_gate() rebuilds the circuit through a DAG: operations on disjoint
   qubits may come back in another order.  Gate mode is therefore compared as
   partial orders: same number of operations and, on every qubit, the same
   sequence of operations *)
Definition touches (q : nat) (o : xop) : bool :=
  match o with XOp _ _ qs _ => existsb (Nat.eqb q) qs | XBar => false end.
Definition in_reg (n : nat) (o : xop) : bool :=
  match o with XOp _ _ qs _ => forallb (fun q => Nat.ltb q n) qs && negb (Nat.eqb (List.length qs) 0) | XBar => false end.
Definition dag_eqb (n : nat) (a b : list xop) : bool :=
  if forallb (in_reg n) a && forallb (in_reg n) b then
    Nat.eqb (List.length a) (List.length b) &&
    forallb (fun q => xops_eqb (filter (touches q) a) (filter (touches q) b)) (seq 0 n)
  else xops_eqb a b.
Definition xres_dag_eqb (n : nat) (a b : xres (list xop)) : bool :=
  match a, b with
  | XOk x, XOk y => dag_eqb n x y
  | XErr, XErr => true
  | _, _ => false
  end.

Record xcase := mkcase {
  c_name : string; c_n : nat; c_qm : list (string * nat); c_gl : list xgate;
  c_qasm : list (option string);            (* v3 gate, v3 circuit, v2 gate, v2 circuit *)
  c_qiskit : list (xres (list xop));        (* gate, circuit *)
  c_cirq : xres (list xop);
  c_sympy : list (xres (list xop)) }.       (* gate, circuit *)

Definition code (id slot v : N) : list N := match v with 0%N => [] | _ => [(id * 10000 + slot * 100 + v)%N] end.

Definition chk_case (qiskit_attrs cirq_attrs : list string) (idc : N * xcase) : list N :=
  let id := fst idc in
  let c := snd idc in
  let name := c_name c in let n := c_n c in let qm := c_qm c in let gl := c_gl c in
  let q (slot : N) (ver3 gm : bool) (o : option (option string)) :=
      match o with
      | None => code id slot 98
      | Some obs =>
        (code id slot (qasm_verdict ver3 gm name n qm gl obs) ++
         code id (slot + 4) (if qasm_prop_ok gm name n gl (qasm_export true ver3 gm name n qm gl) obs
                             then 0 else 2))%list
      end in
  (q 0%N true true (nth_error (c_qasm c) 0) ++ q 1%N true false (nth_error (c_qasm c) 1) ++
   q 2%N false true (nth_error (c_qasm c) 2) ++ q 3%N false false (nth_error (c_qasm c) 3) ++
   (match c_qiskit c with
    | [g; ci] =>
      code id 8 (if xres_dag_eqb n (export_qiskit qiskit_attrs true gl) g then 0 else 99) ++
      code id 9 (if xres_eqb (export_qiskit qiskit_attrs false gl) ci then 0 else 99)
    | _ => code id 8 98
    end) ++
   code id 10 (if xres_eqb (export_cirq true cirq_attrs gl) (c_cirq c) then 0
               else if xres_eqb (export_cirq false cirq_attrs gl) (c_cirq c) then 1 else 99) ++
   (match c_sympy c with
    | [g; ci] =>
      code id 11 (if xres_eqb (xres_nf (export_sympy gl)) (xres_nf g) then 0 else 99) ++
      code id 12 (if xres_eqb (xres_nf (export_sympy gl)) (xres_nf ci) then 0 else 99)
    | _ => code id 11 98
    end))%list.

Definition chk_cases (qiskit_attrs cirq_attrs : list string) (cases : list (N * xcase)) : list N :=
  flat_map (chk_case qiskit_attrs cirq_attrs) cases.

(* the side conditions of Prop_C13.C13_cirq_ops_same_gates on the attribute table of this run *)
Definition attrs_ok (cirq_attrs : list string) : bool :=
  negb (has cirq_attrs "P") && negb (has cirq_attrs "MCtrl").
