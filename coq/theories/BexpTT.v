(* BexpTT.v — truth tables of all 2^n assignments packed in one binary number:
   bit x of a table is the value under the assignment whose variable i is bit i of x.
   Deciding equality of two expressions on EVERY assignment is one N comparison,
   and the decision is proved sound and complete. *)
From Coq Require Import List Bool NArith Arith Lia.
From QV Require Import Bits Bexp.
Import ListNotations.
Local Open Scope N_scope.

Definition pow2n (n : nat) : N := 2 ^ N.of_nat n.
Definition tt_mask (n : nat) : N := N.ones (pow2n n).

Lemma pow2n_S n : pow2n (S n) = 2 * pow2n n.
Proof. apply pow2_S. Qed.

Lemma tt_mask_spec n x : N.testbit (tt_mask n) x = (x <? pow2n n).
Proof. apply ones_bits. Qed.

Lemma mask_lt n x : N.testbit (tt_mask n) x = true <-> x < pow2n n.
Proof. rewrite tt_mask_spec. apply N.ltb_lt. Qed.

Lemma testbit_small x k : x < 2 ^ k -> N.testbit x k = false.
Proof.
  intros H. destruct (N.eq_dec x 0) as [->|Hx]; [apply N.bits_0|].
  apply N.bits_above_log2. apply N.log2_lt_pow2; lia.
Qed.

Lemma testbit_small_le x n m : x < 2 ^ n -> n <= m -> N.testbit x m = false.
Proof.
  intros Hx Hm. apply testbit_small. eapply N.lt_le_trans; [exact Hx|]. apply N.pow_le_mono_r; lia.
Qed.

Lemma testbit_top x k : 2 ^ k <= x -> x < 2 * 2 ^ k -> N.testbit x k = true.
Proof.
  intros Hl Hu. assert (Hx : x <> 0) by (pose proof (N.pow_nonzero 2 k); lia).
  assert (N.log2 x = k) as <-; [|now apply N.bit_log2].
  apply N.log2_unique; rewrite ?N.pow_succ_r'; lia.
Qed.

Lemma testbit_sub_pow2 x k i : i < k -> 2 ^ k <= x -> x < 2 * 2 ^ k ->
  N.testbit (x - 2 ^ k) i = N.testbit x i.
Proof.
  intros Hi Hl Hu. rewrite <- (N.mod_pow2_bits_low x k i Hi). f_equal.
  apply (N.mod_unique x (2 ^ k) 1); lia.
Qed.

(* table of input variable i among n variables *)
Fixpoint var_tt (n i : nat) : N :=
  match n with
  | O => 0
  | S n' =>
      if Nat.eqb i n' then N.shiftl (tt_mask n') (pow2n n')
      else let t := var_tt n' i in N.lor t (N.shiftl t (pow2n n'))
  end.

Lemma shiftl_testbit a s x : N.testbit (N.shiftl a s) x = if x <? s then false else N.testbit a (x - s).
Proof.
  destruct (N.ltb_spec x s) as [H|H].
  - now apply N.shiftl_spec_low.
  - now apply N.shiftl_spec_high'.
Qed.

Lemma var_tt_spec n : forall i x, (i < n)%nat ->
  N.testbit (var_tt n i) x = (x <? pow2n n) && N.testbit x (N.of_nat i).
Proof.
  induction n as [|n IH]; intros i x Hi; [lia|].
  cbn [var_tt]. rewrite pow2n_S. set (s := pow2n n) in *.
  (* with s = 2^n, three cases: x < s (bit n clear), s <= x < 2s (bit n set, x - s < s), 2s <= x *)
  destruct (Nat.eqb_spec i n) as [->|Hne].
  - rewrite shiftl_testbit, tt_mask_spec. fold s.
    destruct (N.ltb_spec x s) as [Hx|Hx]; destruct (N.ltb_spec x (2 * s)) as [Hx2|Hx2]; try lia.
    + rewrite testbit_small by exact Hx. reflexivity.
    + rewrite testbit_top by assumption.
      destruct (N.ltb_spec (x - s) s); [reflexivity|lia].
    + destruct (N.ltb_spec (x - s) s); [lia|reflexivity].
  - assert (Hi' : (i < n)%nat) by lia.
    rewrite N.lor_spec, shiftl_testbit, !IH by exact Hi'. fold s.
    destruct (N.ltb_spec x s) as [Hx|Hx]; destruct (N.ltb_spec x (2 * s)) as [Hx2|Hx2]; try lia.
    + cbn [andb]. apply orb_false_r.
    + destruct (N.ltb_spec (x - s) s); [|lia]. cbn [andb orb].
      apply (testbit_sub_pow2 x (N.of_nat n)); [lia|exact Hx|exact Hx2].
    + destruct (N.ltb_spec (x - s) s); [lia|]. reflexivity.
Qed.

Definition input_tables (n : nat) : list N := map (var_tt n) (seq 0 n).

(* the assignment numbered x *)
Definition asg (x : N) : nat -> bool := fun i => N.testbit x (N.of_nat i).

Lemma var_tt_asg n i x : (i < n)%nat -> x < pow2n n -> N.testbit (var_tt n i) x = asg x i.
Proof. intros Hi Hx. rewrite var_tt_spec by exact Hi. apply N.ltb_lt in Hx. now rewrite Hx. Qed.

Lemma asg_high n x i : x < pow2n n -> (n <= i)%nat -> asg x i = false.
Proof. intros Hx Hi. apply (testbit_small_le x (N.of_nat n)); [exact Hx|lia]. Qed.

Lemma input_tables_length n : length (input_tables n) = n.
Proof. unfold input_tables. now rewrite map_length, seq_length. Qed.

Lemma input_tables_spec n i x : (i < n)%nat -> x < pow2n n ->
  N.testbit (nth i (input_tables n) 0) x = asg x i.
Proof.
  intros Hi Hx. unfold input_tables. rewrite (nth_map_seq (var_tt n)) by exact Hi. now apply var_tt_asg.
Qed.

Fixpoint upd {A} (d : A) (l : list A) (i : nat) (v : A) : list A :=
  match i, l with
  | O, [] => [v]
  | O, _ :: r => v :: r
  | S i', [] => d :: upd d [] i' v
  | S i', x :: r => x :: upd d r i' v
  end.

Lemma nth_upd {A} (d : A) l i v j : nth j (upd d l i v) d = if Nat.eqb j i then v else nth j l d.
Proof.
  revert l j; induction i as [|i IH]; intros l j.
  - destruct l, j; cbn; try reflexivity. now destruct j.
  - destruct l as [|x r], j as [|j]; cbn [upd nth Nat.eqb]; try reflexivity.
    + rewrite IH. destruct (Nat.eqb j i); [reflexivity|now destruct j].
    + apply IH.
Qed.

Lemma map_upd {A B} (h : A -> B) d l i v : map h (upd d l i v) = upd (h d) (map h l) i (h v).
Proof.
  revert l; induction i as [|i IH]; intros l; destruct l as [|x r]; cbn [upd map]; try reflexivity.
  - now rewrite (IH []).
  - now rewrite IH.
Qed.

(* sequential definitions: (symbol, expression) evaluated in order *)
Definition defs := list (nat * bexp).

Definition run_defs (env : nat -> bool) (ds : defs) : nat -> bool :=
  fold_left (fun env se => fun j => if Nat.eqb j (fst se) then beval env (snd se) else env j) ds env.

Definition tenv (tbl : list N) : nat -> N := fun i => nth i tbl 0.

Definition run_defs_tt (m : N) (tbl : list N) (ds : defs) : list N :=
  fold_left (fun tbl se => upd 0 tbl (fst se) (tt_eval m (tenv tbl) (snd se))) ds tbl.

Lemma beval_ext env1 env2 e : (forall i, env1 i = env2 i) -> beval env1 e = beval env2 e.
Proof. intros H. apply beval_syms_ext. intros i _. apply H. Qed.

Lemma run_defs_ext ds : forall env1 env2, (forall i, env1 i = env2 i) ->
  forall j, run_defs env1 ds j = run_defs env2 ds j.
Proof.
  induction ds as [|[s e] ds IH]; intros env1 env2 H j; [apply H|].
  unfold run_defs; cbn [fold_left fst snd]. apply IH. intros i.
  destruct (Nat.eqb i s); [now apply beval_ext|apply H].
Qed.

Lemma run_defs_tt_cons m tbl s e ds :
  run_defs_tt m tbl ((s, e) :: ds) = run_defs_tt m (upd 0 tbl s (tt_eval m (tenv tbl) e)) ds.
Proof. reflexivity. Qed.
Lemma run_defs_cons env s e ds :
  run_defs env ((s, e) :: ds) = run_defs (fun j => if Nat.eqb j s then beval env e else env j) ds.
Proof. reflexivity. Qed.

Lemma run_defs_app a b env j : run_defs env (a ++ b) j = run_defs (run_defs env a) b j.
Proof. unfold run_defs. now rewrite fold_left_app. Qed.

Lemma run_defs_notin ds : forall env j, ~ In j (map fst ds) -> run_defs env ds j = env j.
Proof.
  induction ds as [|[s e] r IH]; intros env j Hj; [reflexivity|].
  cbn [map fst In] in Hj. rewrite run_defs_cons, IH by tauto.
  destruct (Nat.eqb_spec j s) as [->|Hne]; [tauto|reflexivity].
Qed.

Lemma run_defs_tt_spec m x ds : N.testbit m x = true -> forall tbl j,
  N.testbit (tenv (run_defs_tt m tbl ds) j) x = run_defs (fun i => N.testbit (tenv tbl i) x) ds j.
Proof.
  intros Hm. induction ds as [|[s e] ds IH]; intros tbl j; [reflexivity|].
  rewrite run_defs_tt_cons, run_defs_cons, IH. apply run_defs_ext. intros i. unfold tenv at 1.
  rewrite nth_upd. destruct (Nat.eqb i s); [|reflexivity].
  now apply tt_eval_spec.
Qed.

(* the input tables read at assignment x, for every symbol: above n the table is 0 and so is the bit of x *)
Lemma tenv_input n x i : x < pow2n n -> N.testbit (tenv (input_tables n) i) x = asg x i.
Proof.
  intros Hx. destruct (Nat.ltb_spec i n) as [Hi|Hi].
  - now apply input_tables_spec.
  - unfold tenv. rewrite nth_overflow by (rewrite input_tables_length; exact Hi).
    rewrite N.bits_0. symmetry. now apply (asg_high n).
Qed.

Lemma tt_eval_input n e x : x < pow2n n ->
  N.testbit (tt_eval (tt_mask n) (tenv (input_tables n)) e) x = beval (asg x) e.
Proof.
  intros Hx. rewrite tt_eval_spec by now apply mask_lt.
  apply beval_ext. intros i. now apply tenv_input.
Qed.

Definition tt_diff (m a b : N) : N := N.land m (N.lxor a b).

Lemma tt_diff_spec m a b :
  tt_diff m a b = 0 <-> (forall x, N.testbit m x = true -> N.testbit a x = N.testbit b x).
Proof.
  unfold tt_diff. split.
  - intros H x Hm. assert (Hb : N.testbit (N.land m (N.lxor a b)) x = false) by (rewrite H; apply N.bits_0).
    rewrite N.land_spec, N.lxor_spec, Hm in Hb. cbn in Hb.
    destruct (N.testbit a x), (N.testbit b x); cbn in Hb; congruence.
  - intros H. apply N.bits_inj_0. intros x. rewrite N.land_spec, N.lxor_spec.
    destruct (N.testbit m x) eqn:Hm; [|reflexivity]. rewrite (H x Hm). cbn. apply xorb_nilpotent.
Qed.

(* a concrete disagreeing assignment when the tables differ *)
Lemma tt_diff_witness m a b : tt_diff m a b <> 0 ->
  let x := N.log2 (tt_diff m a b) in N.testbit m x = true /\ N.testbit a x <> N.testbit b x.
Proof.
  intros H x. pose proof (N.bit_log2 _ H) as Hb. fold x in Hb. unfold tt_diff in Hb.
  rewrite N.land_spec, N.lxor_spec in Hb. apply andb_true_iff in Hb as [Hm Hx].
  split; [exact Hm|]. destruct (N.testbit a x), (N.testbit b x); cbn in Hx; congruence.
Qed.

(* all-assignment equivalence of two expressions over n input variables *)
Definition bexp_equiv_tt (n : nat) (e1 e2 : bexp) : bool :=
  let m := tt_mask n in let env := tenv (input_tables n) in
  tt_diff m (tt_eval m env e1) (tt_eval m env e2) =? 0.

Definition syms_below (n : nat) (e : bexp) : bool := forallb (fun i => Nat.ltb i n) (bsyms e).

Theorem bexp_equiv_tt_correct n e1 e2 :
  syms_below n e1 = true -> syms_below n e2 = true ->
  (bexp_equiv_tt n e1 e2 = true <-> forall x, x < pow2n n -> beval (asg x) e1 = beval (asg x) e2).
Proof.
  intros _ _. unfold bexp_equiv_tt. rewrite N.eqb_eq, tt_diff_spec.
  split.
  - intros H x Hx. rewrite <- !(tt_eval_input n) by exact Hx. now apply H, mask_lt.
  - intros H x Hm. apply mask_lt in Hm. rewrite !tt_eval_input by exact Hm. now apply H.
Qed.
