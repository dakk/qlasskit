(* P_Decompiler.v — theorems about the model of the decompiler (M_Decompiler.v).
   The expressions of a section describe its gates on every entry state: the dict
   of expressions is a symbolic state, related to the concrete one gate by gate
   ([describes]).  The reported sections are exactly the maximal runs of
   classical gates: the scan keeps [scan_inv], and what it has emitted [tiles]
   the positions read so far.  From the tiling also what the optimizer model
   (C12) needs: sections are sorted, inside the circuit, and hold no more gates
   than their index range. *)
From Coq Require Import List Bool NArith Arith Lia.
From QV Require Import Bexp BexpTT Circ Compiled M_Decompiler.
Import ListNotations.

Lemma eget_eset m q e q' :
  eget (eset m q e) q' = if Nat.eqb q q' then Some e else eget m q'.
Proof.
  induction m as [|[k v] r IH]; cbn [eset eget].
  - destruct (Nat.eqb q q'); reflexivity.
  - destruct (Nat.eqb_spec k q) as [->|Hkq]; cbn [eget].
    + destruct (Nat.eqb q q'); reflexivity.
    + destruct (Nat.eqb_spec k q') as [->|Hkq'].
      * destruct (Nat.eqb_spec q q'); [congruence|reflexivity].
      * exact IH.
Qed.

Lemma egetd_eset m q e q' :
  egetd (eset m q e) q' = if Nat.eqb q q' then e else egetd m q'.
Proof. unfold egetd. rewrite eget_eset. destruct (Nat.eqb q q'); reflexivity. Qed.

Lemma eget_app_own m q q' :
  eget (m ++ [(q, BSym q)]) q' =
  match eget m q' with Some x => Some x | None => if Nat.eqb q q' then Some (BSym q) else None end.
Proof.
  induction m as [|[k v] r IH]; cbn [app eget]; [reflexivity|].
  destruct (Nat.eqb k q'); [reflexivity|exact IH].
Qed.

Lemma egetd_check_or_add w : forall m q, egetd (check_or_add m w) q = egetd m q.
Proof.
  unfold check_or_add. induction w as [|a w IH]; intros m q; cbn [fold_left]; [reflexivity|].
  rewrite IH. destruct (eget m a) eqn:Ea; [reflexivity|].
  unfold egetd. rewrite eget_app_own. destruct (eget m q); [reflexivity|].
  destruct (Nat.eqb_spec a q) as [->|]; reflexivity.
Qed.

Definition keys (m : emap) : list nat := map fst m.

Lemma eget_none_notin m q : eget m q = None <-> ~ In q (keys m).
Proof.
  induction m as [|[k v] r IH]; cbn [eget keys map fst In]; [tauto|].
  destruct (Nat.eqb_spec k q) as [->|Hk].
  - split; [discriminate|]. intros H. exfalso. apply H. now left.
  - rewrite IH. unfold keys. tauto.
Qed.

Lemma keys_eset m q e :
  keys (eset m q e) = match eget m q with Some _ => keys m | None => keys m ++ [q] end.
Proof.
  induction m as [|[k v] r IH]; cbn [eset eget keys map fst app]; [reflexivity|].
  destruct (Nat.eqb k q); [reflexivity|]. cbn [map fst]. fold (keys r) (keys (eset r q e)).
  rewrite IH. destruct (eget r q); reflexivity.
Qed.

Lemma nodup_keys_snoc m q : NoDup (keys m) -> eget m q = None -> NoDup (keys m ++ [q]).
Proof.
  intros Hn Hq. apply (NoDup_Add (Add_app q (keys m) [])). rewrite app_nil_r.
  split; [exact Hn|now apply eget_none_notin].
Qed.

Lemma nodup_eset m q e : NoDup (keys m) -> NoDup (keys (eset m q e)).
Proof.
  intros H. rewrite keys_eset. destruct (eget m q) eqn:E; [exact H|now apply nodup_keys_snoc].
Qed.

Lemma nodup_check_or_add w : forall m, NoDup (keys m) -> NoDup (keys (check_or_add m w)).
Proof.
  unfold check_or_add. induction w as [|a w IH]; intros m H; cbn [fold_left]; [exact H|].
  apply IH. destruct (eget m a) eqn:Ea; [exact H|].
  unfold keys. rewrite map_app. now apply nodup_keys_snoc.
Qed.

Lemma in_eget m q e : NoDup (keys m) -> In (q, e) m -> eget m q = Some e.
Proof.
  induction m as [|[k v] r IH]; intros Hn Hin; [destruct Hin|].
  cbn [keys map fst] in Hn. inversion Hn as [|x l Hx Hn' Heq]; subst.
  cbn [eget]. destruct Hin as [Heq|Hin].
  - injection Heq as -> ->. now rewrite Nat.eqb_refl.
  - destruct (Nat.eqb_spec k q) as [->|Hk]; [|now apply IH].
    exfalso. apply Hx. change q with (fst (q, e)). now apply in_map.
Qed.

Lemma eget_in m q e : eget m q = Some e -> In (q, e) m.
Proof.
  induction m as [|[k v] r IH]; cbn [eget]; [discriminate|].
  destruct (Nat.eqb_spec k q) as [->|Hk].
  - intros H. injection H as ->. now left.
  - intros H. right. now apply IH.
Qed.

(* the symbolic state [m] describes the concrete state [h] reached from entry state [f] *)
Definition describes (f : nat -> bool) (m : emap) (h : nat -> bool) : Prop :=
  forall q, beval f (egetd m q) = h q.

Lemma describes_init f : describes f [] f.
Proof. intros q. reflexivity. Qed.

Lemma forallb_describes f m h cs : describes f m h -> forallb (beval f) (map (egetd m) cs) = forallb h cs.
Proof.
  intros H. induction cs as [|c cs IH]; cbn [map forallb]; [reflexivity|]. now rewrite H, IH.
Qed.

(* [e] is the value of qubit t after an X on t controlled by cs, in terms of the
   expressions of [m] *)
Definition flips (m : emap) (cs : list nat) (t : nat) (e : bexp) : Prop :=
  forall f, beval f e = xorb (beval f (egetd m t)) (forallb (beval f) (map (egetd m) cs)).

Lemma flips_mcx m cs t : flips m cs t (BXor [BAnd (map (egetd m) cs); egetd m t]).
Proof.
  intros f. rewrite beval_xor. cbn [map fold_right]. rewrite beval_and, xorb_false_r. apply xorb_comm.
Qed.

Lemma describes_flip f m h cs t e : describes f m h -> flips m cs t e -> describes f (eset m t e) (fflip h cs t).
Proof.
  intros H He q. rewrite egetd_eset. unfold fflip. rewrite (Nat.eqb_sym q t).
  destruct (Nat.eqb t q); [|apply H]. now rewrite He, (forallb_describes f m h cs H), H.
Qed.

Lemma describes_add f m h w : describes f m h -> describes f (check_or_add m w) h.
Proof. intros H q. rewrite egetd_check_or_add. apply H. Qed.

(* one gate: when it returns, the gate has a classical action, and the dict is
   that of check_or_add, with the target's entry replaced if the gate flips *)
Lemma exps_step_cases old m g m' : exps_step old m g = Ok m' ->
  let m1 := check_or_add m (gqs g) in
  match cact_of g with
  | CFlip cs t => exists e, m' = eset m1 t e /\ flips m1 cs t e
  | CId => m' = m1
  | CNone => False
  end.
Proof.
  unfold exps_step, cact_of. destruct g as [k qs p]. cbn [gkind gqs]. set (m1 := check_or_add m qs).
  intros Hs. destruct k as [b| | | | |n|b n| | ].
  - destruct b; try discriminate; destruct qs as [|t [|? ?]]; try discriminate.
    + (* I *) destruct old; [discriminate|]. now injection Hs.
    + (* X *) injection Hs as <-. cbn [x_controls length Nat.eqb removelast last]. eexists. split; [reflexivity|].
      intros f. rewrite beval_not. cbn [map forallb]. now destruct (beval f (egetd m1 t)).
  - (* CX *) destruct qs as [|c [|t [|? ?]]]; try discriminate. injection Hs as <-.
    cbn [x_controls length Nat.eqb removelast last]. eexists. split; [reflexivity|].
    intros f. rewrite beval_xor. cbn [map fold_right forallb]. rewrite xorb_false_r, andb_true_r. apply xorb_comm.
  - (* CZ *) destruct qs as [|? [|? [|? ?]]]; discriminate.
  - (* CP *) destruct qs as [|? [|? [|? ?]]]; discriminate.
  - (* CCX *) destruct qs as [|a [|b [|t [|? ?]]]]; try discriminate. injection Hs as <-.
    cbn [x_controls length Nat.eqb removelast last]. eexists. split; [reflexivity|]. apply (flips_mcx m1 [a; b] t).
  - (* MCX *) cbn [x_controls]. destruct (Nat.eqb (length qs) (S n)); [|discriminate]. injection Hs as <-.
    eexists. split; [reflexivity|]. apply flips_mcx.
  - (* MCtrl *) destruct qs as [|? [|? [|? ?]]]; discriminate.
  - (* Barrier *) now injection Hs.
  - (* Nop *) now injection Hs.
Qed.

Lemma exps_run_sound f gs : forall m m' h,
  exps_run false m gs = Ok m' -> describes f m h ->
  exists h', fsim h gs = Some h' /\ describes f m' h'.
Proof.
  induction gs as [|g gs IH]; intros m m' h Hrun Hr; cbn [exps_run fsim] in *.
  - injection Hrun as <-. now exists h.
  - destruct (exps_step false m g) as [m1|c] eqn:Es; [|discriminate]. apply exps_step_cases in Es.
    apply (describes_add f m h (gqs g)) in Hr.
    destruct (cact_of g) as [cs t| |]; [|subst m1; now apply (IH _ _ _ Hrun)|contradiction].
    destruct Es as (e & -> & He). apply (IH _ _ _ Hrun). now apply describes_flip.
Qed.

Lemma exps_run_nodup gs : forall m m', exps_run false m gs = Ok m' -> NoDup (keys m) -> NoDup (keys m').
Proof.
  induction gs as [|g gs IH]; intros m m' Hrun Hn; cbn [exps_run] in Hrun.
  - now injection Hrun as <-.
  - destruct (exps_step false m g) as [m1|c] eqn:Es; [|discriminate]. apply exps_step_cases in Es.
    apply (nodup_check_or_add (gqs g)) in Hn. apply (IH _ _ Hrun).
    destruct (cact_of g) as [cs t| |]; [|now subst m1|contradiction].
    destruct Es as (e & -> & _). now apply nodup_eset.
Qed.

Lemma nodup_drop_own m : NoDup (keys m) -> NoDup (keys (drop_own m)).
Proof.
  unfold drop_own, keys. induction m as [|[k v] r IH]; intros Hn; cbn [filter map fst] in *; [constructor|].
  inversion Hn as [|x l Hx Hn' Heq]; subst. cbn [snd].
  destruct (negb (is_own k v)); cbn [map fst]; [|now apply IH].
  constructor; [|now apply IH]. intros Hin. apply Hx.
  apply in_map_iff in Hin as ([k' v'] & Hk & Hin). cbn [fst] in Hk. subst k'.
  apply filter_In in Hin as [Hin _]. change k with (fst (k, v')). now apply in_map.
Qed.

Lemma exps_of_section_ok gs L : exps_of_section gs = Ok L -> exists m, exps_run false [] gs = Ok m /\ L = drop_own m.
Proof.
  unfold exps_of_section, exps_of_section_gen. destruct (exps_run false [] gs) as [m|c]; [|discriminate].
  intros H. injection H as <-. now exists m.
Qed.

Lemma exps_keys_nodup gs L : exps_of_section gs = Ok L -> NoDup (keys L).
Proof.
  intros H. apply exps_of_section_ok in H as (m & Er & ->).
  exact (nodup_drop_own m (exps_run_nodup gs [] m Er (NoDup_nil _))).
Qed.

(* class of the gate at position i; past the end there is the sentinel *)
Definition cls_at (c : circuit) (i : nat) : cls :=
  match nth_error c i with Some g => cl g | None => HARD end.

(* Python's c[s:e] for s <= e *)
Definition slice (c : circuit) (s e : nat) : circuit := firstn (e - s) (skipn s c).

(* the nearest gate before position s that is not a barrier, if any, is not classical *)
Definition left_closed (c : circuit) (s : nat) : Prop :=
  forall j, j < s -> (forall t, j < t < s -> cls_at c t = NOP) -> cls_at c j <> ZB.
(* the nearest gate from position e on that is not a barrier, if any, is not classical *)
Definition right_closed (c : circuit) (e : nat) : Prop :=
  forall j, e <= j -> (forall t, e <= t < j -> cls_at c t = NOP) -> cls_at c j <> ZB.

(* [s, e) is a maximal run of classical gates: it starts and ends with a classical
   gate, holds only classical gates and barriers, and cannot be extended on either
   side, not even across barriers *)
Definition maximal_run (c : circuit) (s e : nat) : Prop :=
  s < e /\ cls_at c s = ZB /\ cls_at c (e - 1) = ZB /\
  (forall t, s <= t < e -> cls_at c t <> HARD) /\
  left_closed c s /\ right_closed c e.

Lemma cls_at_some c i x : cls_at c i = x -> x <> HARD -> exists g, nth_error c i = Some g /\ cl g = x.
Proof.
  unfold cls_at. destruct (nth_error c i) as [g|]; intros H Hx; [now exists g|congruence].
Qed.

Lemma is_zb_cl g : is_zb g = true <-> cl g = ZB.
Proof. unfold is_zb. destruct (cl g); split; congruence. Qed.

Lemma skipn_cons_nth {A} (c : list A) : forall i g r, skipn i c = g :: r -> nth_error c i = Some g /\ skipn (S i) c = r.
Proof.
  induction c as [|x c IH]; intros i g r H.
  - destruct i; discriminate.
  - destruct i as [|i]; cbn [skipn nth_error] in *.
    + injection H as -> ->. split; reflexivity.
    + apply IH in H. exact H.
Qed.

Lemma skipn_nil_nth {A} (c : list A) : forall i, skipn i c = [] -> nth_error c i = None.
Proof.
  induction c as [|x c IH]; intros i H; [now destruct i|].
  destruct i as [|i]; cbn [skipn nth_error] in *; [discriminate|now apply IH].
Qed.

Lemma nth_error_skipn {A} (c : list A) : forall s k, nth_error (skipn s c) k = nth_error c (s + k).
Proof.
  induction c as [|x c IH]; intros s k.
  - destruct s, k; reflexivity.
  - destruct s as [|s]; [reflexivity|]. cbn [skipn Nat.add nth_error]. apply IH.
Qed.

Lemma slice_snoc c s i g : s <= i -> nth_error c i = Some g -> slice c s (S i) = slice c s i ++ [g].
Proof.
  intros Hs Hn. unfold slice. replace (S i - s) with (S (i - s)) by lia.
  apply firstn_snoc. rewrite nth_error_skipn. now replace (s + (i - s)) with i by lia.
Qed.

Lemma slice_empty c s : slice c s s = [].
Proof. unfold slice. now rewrite Nat.sub_diag. Qed.

Lemma slice_length c s e : length (slice c s e) <= e - s.
Proof. unfold slice. rewrite firstn_length. lia. Qed.

Lemma filter_slice_nops c s e : s <= e -> forall k,
  (forall t, e <= t < e + k -> cls_at c t = NOP) ->
  filter is_zb (slice c s (e + k)) = filter is_zb (slice c s e).
Proof.
  intros Hse. induction k as [|k IH]; intros H; [now rewrite Nat.add_0_r|].
  destruct (cls_at_some c (e + k) NOP) as (g & Hg & Hc); [apply H; lia|discriminate|].
  replace (e + S k) with (S (e + k)) by lia.
  rewrite (slice_snoc c s (e + k) g) by (try lia; exact Hg).
  rewrite filter_app. cbn [filter]. unfold is_zb at 2. rewrite Hc, app_nil_r.
  apply IH. intros t Ht. apply H. lia.
Qed.

Lemma filter_slice_snoc c s i g : s <= i -> nth_error c i = Some g ->
  filter is_zb (slice c s (S i)) = filter is_zb (slice c s i) ++ (if is_zb g then [g] else []).
Proof. intros Hs Hn. rewrite (slice_snoc c s i g Hs Hn), filter_app. cbn [filter]. now destruct (is_zb g). Qed.

Lemma cls_at_nth c0 i g : nth_error c0 i = Some g -> cls_at c0 i = cl g.
Proof. intros H. unfold cls_at. now rewrite H. Qed.

(* where the section in progress starts; position i itself when none is *)
Definition bound (start : option nat) (i : nat) : nat := match start with Some s => s | None => i end.

Lemma start_zb start i : match start with None => Some i | Some s => Some s end = Some (bound start i).
Proof. now destruct start. Qed.

(* With s = bound start i: no classical gate reaches s from the left, no
   non-classical gate lies in [s, i), and cur holds the classical gates of [s, i).
   A section in progress starts with a classical gate, its last classical gate is
   at endi - 1, and only barriers follow up to i. *)
Definition scan_inv (c0 : circuit) (i : nat) (cur : list gate) (start : option nat) (endi : nat) : Prop :=
  left_closed c0 (bound start i) /\ bound start i <= i /\
  (forall t, bound start i <= t < i -> cls_at c0 t <> HARD) /\
  cur = filter is_zb (slice c0 (bound start i) i) /\
  match start with
  | None => True
  | Some s => s < endi <= i /\ cls_at c0 s = ZB /\ cls_at c0 (endi - 1) = ZB /\
              (forall t, endi <= t < i -> cls_at c0 t = NOP) /\ cur <> []
  end.

Lemma scan_inv_closed c0 i endi : left_closed c0 i -> scan_inv c0 i [] None endi.
Proof.
  intros Hl. unfold scan_inv. cbn [bound]. rewrite slice_empty.
  split; [exact Hl|]. split; [lia|]. split; [intros t Ht; lia|]. now split.
Qed.

Lemma closed_after c0 i :
  cls_at c0 i <> ZB -> (cls_at c0 i = NOP -> left_closed c0 i) -> left_closed c0 (S i).
Proof.
  intros Hz Hl j Hj Hn. destruct (Nat.eq_dec j i) as [->|Hne]; [exact Hz|].
  assert (Hi : cls_at c0 i = NOP) by (apply Hn; lia).
  apply (Hl Hi); [lia|]. intros t Ht. apply Hn. lia.
Qed.

Lemma scan_inv_zb c0 i cur start endi g :
  scan_inv c0 i cur start endi -> nth_error c0 i = Some g -> cl g = ZB ->
  scan_inv c0 (S i) (cur ++ [g]) (Some (bound start i)) (S i).
Proof.
  intros (Hl & Hs & Hh & Hc & Ho) Hn Hg. pose proof (cls_at_nth c0 i g Hn) as Hci. rewrite Hg in Hci.
  unfold scan_inv. cbn [bound]. replace (S i - 1) with i by lia.
  split; [exact Hl|]. split; [lia|]. split; [|split].
  - intros t Ht. destruct (Nat.eq_dec t i) as [->|Hne]; [congruence|apply Hh; lia].
  - rewrite (filter_slice_snoc c0 _ i g Hs Hn), <- Hc. unfold is_zb. now rewrite Hg.
  - split; [lia|]. split; [|split; [exact Hci|split; [intros t Ht; lia|now destruct cur]]].
    destruct start as [s|]; [apply Ho|exact Hci].
Qed.

Lemma scan_inv_nop c0 i cur start endi :
  scan_inv c0 i cur start endi -> cls_at c0 i = NOP -> scan_inv c0 (S i) cur start endi.
Proof.
  intros (Hl & Hs & Hh & Hc & Ho) Hci. destruct start as [s|]; cbn [bound] in *.
  - destruct (cls_at_some c0 i NOP Hci) as (g & Hn & Hg); [discriminate|].
    destruct Ho as (H1 & H2 & H3 & H4 & H5).
    unfold scan_inv. cbn [bound]. split; [exact Hl|]. split; [lia|]. split; [|split].
    + intros t Ht. destruct (Nat.eq_dec t i) as [->|Hne]; [congruence|apply Hh; lia].
    + rewrite (filter_slice_snoc c0 s i g Hs Hn), <- Hc. unfold is_zb. rewrite Hg. symmetry. apply app_nil_r.
    + split; [lia|]. split; [exact H2|]. split; [exact H3|]. split; [|exact H5].
      intros t Ht. destruct (Nat.eq_dec t i) as [->|Hne]; [exact Hci|apply H4; lia].
  - rewrite slice_empty in Hc. subst cur. apply scan_inv_closed, closed_after; [congruence|intros _; exact Hl].
Qed.

Lemma scan_inv_hard c0 i endi : cls_at c0 i = HARD -> scan_inv c0 (S i) [] None endi.
Proof. intros Hc. apply scan_inv_closed, closed_after; [congruence|intros H; congruence]. Qed.

Lemma scan_inv_nil c0 i start endi : scan_inv c0 i [] start endi -> start = None.
Proof.
  intros (_ & _ & _ & _ & Ho). destruct start; [|reflexivity]. now destruct Ho as (_ & _ & _ & _ & Hne).
Qed.

(* a section is in progress and a non-classical gate follows: the section is a
   maximal run, and no classical gate lies between its end and the next position *)
Lemma scan_inv_flush c0 i g cur start endi :
  scan_inv c0 i (g :: cur) start endi -> cls_at c0 i = HARD ->
  exists s, start = Some s /\ maximal_run c0 s endi /\ g :: cur = filter is_zb (slice c0 s endi) /\
            endi <= i /\ forall t, endi <= t < S i -> cls_at c0 t <> ZB.
Proof.
  intros (Hl & Hs & Hh & Hc & Ho) Hci.
  destruct start as [s|]; cbn [bound] in *; [|rewrite slice_empty in Hc; discriminate].
  destruct Ho as (H1 & H2 & H3 & H4 & _).
  assert (Hz : forall t, endi <= t < S i -> cls_at c0 t <> ZB).
  { intros t Ht. destruct (Nat.eq_dec t i) as [->|Hne]; [congruence|]. rewrite H4 by lia. discriminate. }
  exists s. split; [reflexivity|]. split; [|split; [|split; [lia|exact Hz]]].
  - split; [lia|]. split; [exact H2|]. split; [exact H3|]. split; [intros t Ht; apply Hh; lia|]. split; [exact Hl|].
    intros j Hj Hn. destruct (Nat.lt_ge_cases j (S i)) as [Hlt|Hge]; [apply Hz; lia|].
    assert (cls_at c0 i = NOP) by (apply Hn; lia). congruence.
  - rewrite Hc. replace i with (endi + (i - endi)) by lia. apply filter_slice_nops; [lia|].
    intros t Ht. apply H4. lia.
Qed.

Fixpoint sorted_from (B : nat) (l : list sec) : Prop :=
  match l with
  | [] => True
  | (s, e, _) :: r => B <= s /\ s < e /\ sorted_from e r
  end.

(* [l] tiles the positions from B to E: its sections are maximal runs with their
   classical gates, listed left to right, and no classical gate lies outside them *)
Fixpoint tiles (c0 : circuit) (B E : nat) (l : list sec) : Prop :=
  match l with
  | [] => forall t, B <= t < E -> cls_at c0 t <> ZB
  | (s, e, gs) :: r =>
      B <= s /\ (forall t, B <= t < s -> cls_at c0 t <> ZB) /\
      maximal_run c0 s e /\ gs = filter is_zb (slice c0 s e) /\ tiles c0 e E r
  end.

Lemma tiles_mono c0 B B' E l :
  B' <= B -> (forall t, B' <= t < B -> cls_at c0 t <> ZB) -> tiles c0 B E l -> tiles c0 B' E l.
Proof.
  intros HB Hg. destruct l as [|[[s e] gs] r]; cbn [tiles].
  - intros H t Ht. destruct (Nat.lt_ge_cases t B); [apply Hg; lia|apply H; lia].
  - intros (H1 & H2 & H3). split; [lia|]. split; [|exact H3].
    intros t Ht. destruct (Nat.lt_ge_cases t B); [apply Hg; lia|apply H2; lia].
Qed.

Lemma scan_tiles c0 : forall r i cur start endi,
  skipn i c0 = r -> scan_inv c0 i cur start endi ->
  tiles c0 (bound start i) (i + length r) (scan i cur start endi r).
Proof.
  induction r as [|g r IH]; intros i cur start endi Hsk HI; cbn [scan].
  - assert (Hh : cls_at c0 i = HARD) by (unfold cls_at; now rewrite (skipn_nil_nth c0 i Hsk)).
    destruct cur as [|g0 cur'].
    + rewrite (scan_inv_nil c0 i start endi HI). intros t Ht. cbn [bound length] in Ht. lia.
    + destruct (scan_inv_flush c0 i g0 cur' start endi HI Hh) as (s & -> & M & Hg & He & Hz).
      cbn [tiles bound odef]. split; [lia|]. split; [intros t Ht; lia|]. split; [exact M|]. split; [exact Hg|].
      intros t Ht. apply Hz. cbn [length] in Ht. lia.
  - destruct (skipn_cons_nth c0 i g r Hsk) as [Hn Hsk']. pose proof (cls_at_nth c0 i g Hn) as Hci.
    cbn [length]. replace (i + S (length r)) with (S i + length r) by lia.
    (* a position that holds no classical gate may be skipped *)
    assert (Hskip : cls_at c0 i <> ZB -> forall l, tiles c0 (S i) (S i + length r) l -> tiles c0 i (S i + length r) l).
    { intros Hg l. apply tiles_mono; [lia|]. intros t Ht. now replace t with i by lia. }
    destruct (cl g) eqn:Ec.
    + rewrite start_zb. exact (IH _ _ _ _ Hsk' (scan_inv_zb c0 i cur start endi g HI Hn Ec)).
    + pose proof (IH _ _ _ _ Hsk' (scan_inv_nop c0 i cur start endi HI Hci)) as T.
      destruct start; [exact T|]. apply Hskip; [congruence|exact T].
    + pose proof (IH _ _ _ _ Hsk' (scan_inv_hard c0 i endi Hci)) as T. cbn [bound] in T.
      destruct cur as [|g0 cur'].
      * rewrite (scan_inv_nil c0 i start endi HI). apply Hskip; [congruence|exact T].
      * destruct (scan_inv_flush c0 i g0 cur' start endi HI Hci) as (s & -> & M & Hg & He & Hz).
        cbn [tiles bound odef]. split; [lia|]. split; [intros t Ht; lia|]. split; [exact M|]. split; [exact Hg|].
        apply (tiles_mono c0 (S i)); [lia|exact Hz|exact T].
Qed.

Lemma tiles_sorted c0 E l : forall B, tiles c0 B E l -> sorted_from B l.
Proof.
  induction l as [|[[s e] gs] r IH]; intros B; cbn [tiles sorted_from]; [trivial|].
  intros (H1 & _ & M & _ & T). split; [exact H1|]. split; [apply M|exact (IH e T)].
Qed.

Lemma tiles_sound c0 E l : forall B, tiles c0 B E l ->
  forall s e gs, In (s, e, gs) l -> maximal_run c0 s e /\ gs = filter is_zb (slice c0 s e).
Proof.
  induction l as [|[[s0 e0] gs0] r IH]; intros B T s e gs Hin; [destruct Hin|].
  destruct T as (_ & _ & M & Hg & T). destruct Hin as [[= <- <- <-]|Hin]; [now split|exact (IH e0 T s e gs Hin)].
Qed.

Lemma tiles_covers c0 E l : forall B k, tiles c0 B E l -> B <= k < E -> cls_at c0 k = ZB ->
  exists s e gs, In (s, e, gs) l /\ s <= k < e.
Proof.
  induction l as [|[[s0 e0] gs0] r IH]; intros B k T Hk Hz; cbn [tiles] in T; [destruct (T k Hk Hz)|].
  destruct T as (H1 & Hgap & M & _ & T).
  destruct (Nat.lt_ge_cases k s0) as [Hlt|Hge]; [destruct (Hgap k (conj (proj1 Hk) Hlt) Hz)|].
  destruct (Nat.lt_ge_cases k e0) as [Hlt|Hge'].
  - exists s0, e0, gs0. split; [now left|lia].
  - destruct (IH e0 k T (conj Hge' (proj2 Hk)) Hz) as (s & e & gs & Hin & Hr).
    exists s, e, gs. split; [now right|exact Hr].
Qed.

(* next to a closed end, a stretch without non-classical gates holds only barriers *)
Lemma left_closed_nop c s : left_closed c s ->
  forall j, j < s -> (forall t, j <= t < s -> cls_at c t <> HARD) -> cls_at c j = NOP.
Proof.
  intros Hl j. remember (s - j) as d eqn:Ed. revert j Ed.
  induction d as [d IH] using lt_wf_ind. intros j -> Hj Hh.
  assert (Hn : forall t, j < t < s -> cls_at c t = NOP).
  { intros t Ht. apply (IH (s - t)); [lia|reflexivity|lia|]. intros u Hu. apply Hh. lia. }
  specialize (Hl j Hj Hn). specialize (Hh j ltac:(lia)). destruct (cls_at c j); congruence.
Qed.

Lemma right_closed_nop c e : right_closed c e ->
  forall j, e <= j -> (forall t, e <= t <= j -> cls_at c t <> HARD) -> cls_at c j = NOP.
Proof.
  intros Hr j. induction j as [j IH] using lt_wf_ind. intros Hj Hh.
  assert (Hn : forall t, e <= t < j -> cls_at c t = NOP).
  { intros t Ht. apply IH; [lia|lia|]. intros u Hu. apply Hh. lia. }
  specialize (Hr j Hj Hn). specialize (Hh j ltac:(lia)). destruct (cls_at c j); congruence.
Qed.

Lemma run_starts_ordered c s1 e1 s2 e2 x :
  maximal_run c s1 e1 -> maximal_run c s2 e2 -> s1 <= x < e1 -> s2 <= x < e2 -> ~ s1 < s2.
Proof.
  intros (_ & A2 & _ & A4 & _) (_ & _ & _ & _ & B5 & _) H1 H2 Hlt.
  rewrite (left_closed_nop c s2 B5 s1 Hlt) in A2; [discriminate|]. intros t Ht. apply A4. lia.
Qed.

Lemma run_ends_ordered c s1 e1 s2 e2 x :
  maximal_run c s1 e1 -> maximal_run c s2 e2 -> s1 <= x < e1 -> s2 <= x < e2 -> ~ e1 < e2.
Proof.
  intros (_ & _ & _ & _ & _ & A6) (_ & _ & B3 & B4 & _) H1 H2 Hlt.
  rewrite (right_closed_nop c e1 A6 (e2 - 1)) in B3; [discriminate|lia|]. intros t Ht. apply B4. lia.
Qed.

Lemma maximal_run_unique c s1 e1 s2 e2 x :
  maximal_run c s1 e1 -> maximal_run c s2 e2 -> s1 <= x < e1 -> s2 <= x < e2 -> s1 = s2 /\ e1 = e2.
Proof.
  intros M1 M2 H1 H2.
  pose proof (run_starts_ordered c s1 e1 s2 e2 x M1 M2 H1 H2).
  pose proof (run_starts_ordered c s2 e2 s1 e1 x M2 M1 H2 H1).
  pose proof (run_ends_ordered c s1 e1 s2 e2 x M1 M2 H1 H2).
  pose proof (run_ends_ordered c s2 e2 s1 e1 x M2 M1 H2 H1).
  lia.
Qed.

Lemma sections_tiles c : tiles c 0 (length c) (sections c).
Proof. apply (scan_tiles c c 0 [] None 0 eq_refl), scan_inv_closed. intros j Hj. lia. Qed.

Lemma maximal_run_bound c s e : maximal_run c s e -> s < e /\ e <= length c.
Proof.
  intros (H1 & _ & H3 & _). split; [exact H1|].
  destruct (cls_at_some c (e - 1) ZB H3) as (g & Hg & _); [discriminate|].
  assert (e - 1 < length c) by (apply nth_error_Some; congruence). lia.
Qed.

(* C11: the sections reported for a circuit are EXACTLY its maximal
   runs of classical gates; the index is (position of the first gate, position
   after the last gate) and the gate list is the run without its barriers. *)
Theorem sections_exact : forall c s e gs,
  In (s, e, gs) (sections c) <-> maximal_run c s e /\ gs = filter is_zb (slice c s e).
Proof.
  intros c s e gs. split; [apply (tiles_sound c _ _ 0 (sections_tiles c))|].
  intros [M ->]. pose proof M as (_ & M2 & _). destruct (maximal_run_bound c s e M) as [Hs He].
  destruct (tiles_covers c _ _ 0 s (sections_tiles c)) as (s' & e' & gs' & Hin & Hr); [lia|exact M2|].
  pose proof Hin as Hin'. apply (tiles_sound c _ _ 0 (sections_tiles c)) in Hin' as [M' ->].
  destruct (maximal_run_unique c s e s' e' s M M' ltac:(lia) ltac:(lia)) as [-> ->]. exact Hin.
Qed.

Theorem sections_sorted : forall c, sorted_from 0 (sections c).
Proof. intros c. exact (tiles_sorted c _ _ 0 (sections_tiles c)). Qed.

Lemma filter_len_le {A} (p : A -> bool) l : length (filter p l) <= length l.
Proof. induction l as [|x l IH]; cbn [filter length]; [lia|]. destruct (p x); cbn [length]; lia. Qed.

Lemma section_bounds c s e gs : In (s, e, gs) (sections c) -> s < e /\ e <= length c /\ length gs <= e - s.
Proof.
  intros H. apply sections_exact in H as [M ->]. destruct (maximal_run_bound c s e M) as [H1 H2].
  repeat split; try assumption.
  etransitivity; [apply filter_len_le|apply slice_length].
Qed.

(* arity of the classical gates, as gates.apply enforces it *)
Definition zb_wf (g : gate) : Prop :=
  match gkind g with
  | K1 BI | K1 BX => length (gqs g) = 1
  | KCX => length (gqs g) = 2
  | KCCX => length (gqs g) = 3
  | KMCX n => length (gqs g) = S n
  | _ => True
  end.

Lemma exps_step_ok m g : cl g = ZB -> zb_wf g -> exists m', exps_step false m g = Ok m'.
Proof.
  unfold cl, zb_wf, exps_step. destruct g as [k qs p]. cbn [gkind gqs]. intros Hc Hw.
  destruct k as [b| | | | |n|b n| | ]; try discriminate.
  - destruct b; try discriminate; destruct qs as [|a [|? ?]]; try discriminate; eexists; reflexivity.
  - destruct qs as [|a [|b [|? ?]]]; try discriminate; eexists; reflexivity.
  - destruct qs as [|a [|b [|c [|? ?]]]]; try discriminate; eexists; reflexivity.
  - rewrite Hw, Nat.eqb_refl. eexists; reflexivity.
Qed.

Lemma exps_run_ok gs : Forall (fun g => cl g = ZB /\ zb_wf g) gs -> forall m, exists m', exps_run false m gs = Ok m'.
Proof.
  induction 1 as [|g gs [Hc Hw] _ IH]; intros m; cbn [exps_run]; [now exists m|].
  destruct (exps_step_ok m g Hc Hw) as (m1 & ->). apply IH.
Qed.

Lemma in_slice c s e g : In g (slice c s e) -> In g c.
Proof.
  intros H. rewrite <- (firstn_skipn s c), <- (firstn_skipn (e - s) (skipn s c)), !in_app_iff.
  right. left. exact H.
Qed.

Theorem decompile_total : forall c, Forall zb_wf c -> exists r, decompile c = Ok r.
Proof.
  intros c Hwf. unfold decompile.
  assert (G : forall l, (forall s e gs, In (s, e, gs) l -> In (s, e, gs) (sections c)) -> exists r, with_exps false l = Ok r).
  { induction l as [|[[s e] gs] l IH]; intros Hl; cbn [with_exps]; [now eexists|].
    assert (Hin : In (s, e, gs) (sections c)) by (apply Hl; now left).
    apply sections_exact in Hin as [_ ->].
    unfold exps_of_section_gen.
    destruct (exps_run_ok (filter is_zb (slice c s e))) with (m := @nil (nat * bexp)) as (m' & ->).
    - apply Forall_forall. intros g Hg. apply filter_In in Hg as [Hg Hz]. split; [now apply is_zb_cl|].
      rewrite Forall_forall in Hwf. apply Hwf. now apply (in_slice c s e).
    - destruct IH as (r & ->); [intros s' e' gs' H; apply Hl; now right|]. now eexists. }
  apply G. auto.
Qed.

(* [old_guard]: whenever a run is closed (by a non-classical gate or by the end
   of the circuit), at most ONE barrier separates it from the run's last gate.
   Exactly under this guard the rule before fix 3c0d878, "end = i, minus one if
   gates[i-1] is a Nop" (scan_old), computes the index the code computes. *)
Fixpoint old_guard_from (open : bool) (trail : nat) (r : circuit) : bool :=
  match r with
  | [] => negb open || (trail <=? 1)
  | g :: r' =>
      match cl g with
      | ZB => old_guard_from true 0 r'
      | NOP => old_guard_from open (S trail) r'
      | HARD => (negb open || (trail <=? 1)) && old_guard_from false 0 r'
      end
  end.
Definition old_guard (c : circuit) : bool := old_guard_from false 0 c.

(* the state of old_guard_from against that of the two scans at position i:
   [open]: a run is in progress; [trail]: the number of barriers since its last
   classical gate, so that i = endi + trail and scan_old's flag prev ("the
   previous gate is a Nop") is 0 < trail *)
Definition old_scan_inv (i : nat) (prev : bool) (cur : list gate) (endi : nat) (open : bool) (trail : nat) : Prop :=
  (open = false /\ cur = []) \/ (open = true /\ cur <> [] /\ i = endi + trail /\ prev = (0 <? trail)).

Lemma old_end_eq i prev endi trail : i = endi + trail -> prev = (0 <? trail) ->
  ((if prev then i - 1 else i) = endi <-> (trail <=? 1) = true).
Proof.
  intros -> ->. rewrite Nat.leb_le. destruct trail as [|[|t]]; cbn [Nat.ltb Nat.leb]; lia.
Qed.

Lemma scan_old_iff r : forall i prev cur start endi open trail,
  old_scan_inv i prev cur endi open trail ->
  (scan_old i prev cur start r = scan i cur start endi r <-> old_guard_from open trail r = true).
Proof.
  induction r as [|g r IH]; intros i prev cur start endi open trail HR; cbn [scan_old scan old_guard_from].
  - destruct HR as [(-> & ->)|(-> & Hc & Hi & Hp)]; [cbn; tauto|].
    destruct cur as [|g0 cur']; [contradiction|]. cbn [negb orb].
    rewrite <- (old_end_eq i prev endi trail Hi Hp). split; [intros H; now injection H|intros ->; reflexivity].
  - destruct (cl g).
    + apply IH. right. repeat split; [now destruct cur|lia].
    + apply IH. destruct HR as [(-> & ->)|(-> & Hc & Hi & Hp)]; [now left|].
      right. repeat split; [exact Hc|lia].
    + destruct HR as [(-> & ->)|(-> & Hc & Hi & Hp)].
      * cbn [negb orb andb]. apply IH. now left.
      * destruct cur as [|g0 cur']; [contradiction|]. cbn [negb orb].
        rewrite andb_true_iff, <- (old_end_eq i prev endi trail Hi Hp).
        rewrite <- (IH (S i) false [] None endi false 0) by now left.
        split; [intros H; injection H as H1 H2; now split|intros [-> ->]; reflexivity].
Qed.

Local Open Scope N_scope.

(* [ex] is a list of (qubit, expression) as returned by the implementation;
   a qubit without an entry keeps its value (expression = its own symbol) *)
Definition sec_expected (nq : nat) (ex : emap) : list (nat * N) :=
  map (fun q => (q, tt_eval (tt_mask nq) (tenv (input_tables nq)) (egetd ex q))) (seq 0 nq).
Definition sec_check (nq : nat) (gs : circuit) (ex : emap) : option N :=
  check_circuit (tt_mask nq) (input_tables nq) gs (sec_expected nq ex).

Lemma proj_input_basis n x q : x < pow2n n -> proj x (input_tables n) q = basis n x q.
Proof.
  intros Hx. unfold proj, basis. destruct (Nat.ltb_spec q n) as [Hq|Hq].
  - now apply input_tables_spec.
  - rewrite nth_overflow by (rewrite input_tables_length; exact Hq). apply N.bits_0.
Qed.

(* the tables computed from the input tables, read at x, are the reference run
   from the basis state x *)
Lemma sim_input_basis nq c t x : sim (tt_alg (tt_mask nq)) (input_tables nq) c = Some t -> x < pow2n nq ->
  exists h, fsim (basis nq x) c = Some h /\ forall q, proj x t q = h q.
Proof.
  intros Es Hx. pose proof (sim_tt_spec (tt_mask nq) x c (proj2 (mask_lt nq x) Hx) (input_tables nq)) as Hs.
  rewrite Es in Hs.
  pose proof (fsim_ext c _ _ (fun q => proj_input_basis nq x q Hx)) as Hb.
  destruct (fsim (proj x (input_tables nq)) c) as [h|]; [|contradiction].
  destruct (fsim (basis nq x) c) as [h'|]; [|contradiction]. exists h'. split; [reflexivity|].
  intros q. now rewrite Hs, Hb.
Qed.

Lemma sec_expected_bit nq ex x q : x < pow2n nq ->
  N.testbit (tt_eval (tt_mask nq) (tenv (input_tables nq)) (egetd ex q)) x = beval (basis nq x) (egetd ex q).
Proof.
  intros Hx. rewrite tt_eval_spec by now apply mask_lt. apply beval_ext. intros i.
  rewrite tenv_input by exact Hx. symmetry. now apply basis_asg.
Qed.

Definition sec_holds (nq : nat) (gs : circuit) (ex : emap) : Prop :=
  forall x, x < pow2n nq ->
    exists f, fsim (basis nq x) gs = Some f /\
      forall q, (q < nq)%nat -> f q = beval (basis nq x) (egetd ex q).

Theorem sec_check_correct nq gs ex :
  sec_check nq gs ex = Some 0 <-> all_classical gs = true /\ sec_holds nq gs ex.
Proof.
  apply (check_basis_iff nq _ gs _ (basis nq)
           (fun x f => forall q, (q < nq)%nat -> f q = beval (basis nq x) (egetd ex q))).
  - intros x Hx q. now apply proj_input_basis.
  - intros x Hx f g Hfg. unfold sec_expected. split.
    + intros He q Hq. rewrite <- Hfg, <- sec_expected_bit by exact Hx. apply He.
      apply in_map_iff. exists q. split; [reflexivity|apply in_seq; lia].
    + intros He q e Hin. apply in_map_iff in Hin as (q' & [= <- <-] & Hin). apply in_seq in Hin.
      rewrite Hfg, He by lia. symmetry. now apply sec_expected_bit.
Qed.

Local Close Scope N_scope.
(* X; CX; barrier; barrier; H: the rule before fix 3c0d878 reports (0,3), and position 2 is a barrier *)
Definition wit_two_barriers : circuit :=
  [mkg (K1 BX) [0] None; mkg KCX [0; 1] None; mkg KBarrier [] None; mkg KBarrier [] None; mkg (K1 BH) [2] None].
