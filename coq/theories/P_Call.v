(* P_Call.v — about M_Call.v.  Everything rests on bsubst_spec: substituting expressions for
   symbols is evaluating in the environment senv that gives those symbols the expressions' values.
   Compressing a definition list and binding formals to actuals are both substitutions by an
   association list, so both are read through senv (denv, bind_formals). *)
From Coq Require Import List Bool NArith Arith Lia.
From QV Require Import Bexp BexpTT M_Call.
Import ListNotations.

Definition senv (rho : nat -> bool) (s : nat -> option bexp) : nat -> bool :=
  fun i => match s i with Some e => beval rho e | None => rho i end.

Lemma bsubst_spec rho s e : beval rho (bsubst s e) = beval (senv rho s) e.
Proof.
  unfold beval.
  induction e as [b|i|e IH|l IH|l IH|l IH|c t e IHc IHt IHe|a b IHa IHb] using bexp_ind2;
    cbn [bsubst geval].
  - reflexivity.
  - unfold senv, beval. destruct (s i); reflexivity.
  - now rewrite IH.
  - exact (fold_right_map_ext _ _ _ _ _ l IH).
  - exact (fold_right_map_ext _ _ _ _ _ l IH).
  - exact (fold_right_map_ext _ _ _ _ _ l IH).
  - now rewrite IHc, IHt, IHe.
  - now rewrite IHa, IHb.
Qed.

(* environment described by an association list of already-compressed definitions *)
Definition denv (rho : nat -> bool) (d : list (nat * bexp)) : nat -> bool := senv rho (assoc d).

Lemma denv_cons rho s e d j :
  denv rho ((s, e) :: d) j = if Nat.eqb j s then beval rho e else denv rho d j.
Proof.
  unfold denv, senv. cbn [assoc]. rewrite Nat.eqb_sym. destruct (Nat.eqb j s); reflexivity.
Qed.

(* compressing = running the definitions: each compressed expression, evaluated
   on the formals only, is the value the sequential run assigns to its symbol;
   [d] holds the definitions compressed so far *)
Lemma compress_go_run rho ds : forall d s e, In (s, e) (compress_go d ds) ->
  exists pre post e0, ds = pre ++ (s, e0) :: post /\
    beval rho e = run_defs (denv rho d) (pre ++ [(s, e0)]) s.
Proof.
  induction ds as [|[s0 e0] ds IH]; intros d s e; [intros []|].
  cbn [compress_go]. intros [[= <- <-]|Hin].
  - exists [], ds, e0. split; [reflexivity|]. cbn [app]. rewrite run_defs_cons.
    unfold run_defs; cbn [fold_left]. now rewrite Nat.eqb_refl, bsubst_spec.
  - destruct (IH _ s e Hin) as (pre & post & e1 & -> & Hev).
    exists ((s0, e0) :: pre), post, e1. split; [reflexivity|].
    rewrite Hev. cbn [app]. rewrite run_defs_cons. apply run_defs_ext. intros j.
    now rewrite denv_cons, bsubst_spec.
Qed.

(* call site: the caller's bit = the callee's compressed return expression
   evaluated with each formal bit bound to the VALUE of the actual bit expression *)
Definition bind_formals (rho : nat -> bool) (formals : list nat) (actuals : list bexp) : nat -> bool :=
  senv rho (assoc (combine formals actuals)).

Theorem call_is_composition rho formals actuals rets :
  map (beval rho) (call_site formals actuals rets) =
  map (fun se => beval (bind_formals rho formals actuals) (snd se)) rets.
Proof.
  unfold call_site. rewrite map_map. apply map_ext. intros [s e]. cbn [snd]. apply bsubst_spec.
Qed.

Lemma assoc_combine_nth formals actuals k f :
  NoDup formals -> nth_error formals k = Some f ->
  assoc (combine formals actuals) f = nth_error actuals k.
Proof.
  revert actuals k. induction formals as [|f0 fs IH]; intros actuals k Hnd Hk; [now destruct k|].
  apply NoDup_cons_iff in Hnd as [Hnin Hnd'].
  destruct actuals as [|a0 as_]; [now destruct k|]. cbn [combine assoc]. destruct k as [|k].
  - injection Hk as <-. now rewrite Nat.eqb_refl.
  - cbn [nth_error] in Hk |- *. destruct (Nat.eqb_spec f0 f) as [->|Hne]; [|now apply IH].
    exfalso. apply Hnin. eapply nth_error_In; eauto.
Qed.

Lemma assoc_not_in l i : ~ In i (map fst l) -> assoc l i = None.
Proof.
  induction l as [|[k e] r IH]; intros H; [reflexivity|]. cbn [assoc].
  destruct (Nat.eqb_spec k i) as [->|Hne]; [exfalso; apply H; now left|].
  apply IH. intros Hc. apply H. now right.
Qed.
