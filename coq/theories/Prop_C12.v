(* Prop_C12.v — "The circuit boolean optimizer returns an equivalent, no larger
   circuit".  Statements about the model of circuit_boolean_optimizer
   (M_Decopt.v, acceptance test as repaired by fix 7930d24) for EVERY circuit and EVERY outcome
   of the (unmodelled) simplification and re-synthesis.  harness/c12.py ties the
   model to /repo on every run and decides, with circ_equiv, that each accepted
   replacement acts like the slice it replaces. *)
From Coq Require Import List Bool NArith Arith.
From QV Require Import Bexp BexpTT Circ Compiled M_Decompiler P_Decompiler M_Decopt P_Decopt.
Import ListNotations.

(* replacing gates[s:e] by a list with the same classical action on every basis
   state preserves the classical action of the whole circuit *)
Theorem C12_splice_preserves_classical : forall c s e new,
  s <= e -> acts_alike (slice c s e) new -> acts_alike c (splice c s e new).
Proof.
  intros c s e new Hse H. rewrite (circuit_split3 c s e Hse) at 1. unfold splice.
  apply acts_alike_app_l, acts_alike_app_r, H.
Qed.
Print Assumptions C12_splice_preserves_classical.

(* the same for ANY compositional semantics of gate lists (a monoid U with a
   denotation per gate: unitaries under product, channels, ...) *)
Theorem C12_splice_preserves : forall (U : Type) (one : U) (comp : U -> U -> U),
  (forall a b c, comp a (comp b c) = comp (comp a b) c) -> (forall a, comp one a = a) ->
  forall (den : gate -> U) c s e new,
  s <= e -> den_list U one comp den (slice c s e) = den_list U one comp den new ->
  den_list U one comp den (splice c s e new) = den_list U one comp den c.
Proof. exact splice_preserves_den. Qed.
Print Assumptions C12_splice_preserves.

(* the optimizer as a whole: if every accepted replacement denotes what the slice
   it replaces denotes, the result denotes what the input denotes *)
Theorem C12_optimize_preserves : forall (U : Type) (one : U) (comp : U -> U -> U),
  (forall a b c, comp a (comp b c) = comp (comp a b) c) -> (forall a, comp one a = a) ->
  forall (den : gate -> U) c news,
  replacements_ok U one comp den accept c (combine (sections c) news) ->
  den_list U one comp den (optimize c news) = den_list U one comp den c.
Proof. intros U one comp Ha Hl den c news. exact (optimize_preserves_den U one comp Ha Hl den accept c news). Qed.
Print Assumptions C12_optimize_preserves.

Theorem C12_optimize_preserves_classical : forall c news,
  (forall s e gs r, In ((s, e, gs), r) (combine (sections c) news) -> accept gs r = true ->
     acts_alike (slice c s e) (fst r)) ->
  acts_alike c (optimize c news).
Proof.
  intros c news Hok. apply (optimize_inv (acts_alike c)); [apply acts_alike_refl|].
  intros acc s e gs r Hin Ha Hse _ Hsl Hacc. apply (acts_alike_trans _ _ _ Hacc).
  apply C12_splice_preserves_classical; [exact (Nat.lt_le_incl _ _ Hse)|]. rewrite Hsl. exact (Hok s e gs r Hin Ha).
Qed.
Print Assumptions C12_optimize_preserves_classical.

(* no larger, whatever the re-synthesis returns *)
Theorem C12_opt_no_larger : forall c news, length (optimize c news) <= length c.
Proof. exact opt_no_larger. Qed.
Print Assumptions C12_opt_no_larger.

(* the decision used per replaced slice (and per all-classical circuit):
   circ_equiv nq c1 c2 = true exactly when both lists are classical, stay on
   qubits < nq, and end in the same state from EVERY entry state *)
Theorem C12_circ_equiv_sound_and_complete : forall nq c1 c2,
  circ_equiv nq c1 c2 = true <->
  qubits_in nq c1 = true /\ qubits_in nq c2 = true /\
  all_classical c1 = true /\ all_classical c2 = true /\ equal_on_all_states c1 c2.
Proof. exact circ_equiv_correct. Qed.
Print Assumptions C12_circ_equiv_sound_and_complete.

(* a failing verdict (it names a qubit) is never given to circuits that act alike *)
Theorem C12_circ_compare_witness : forall nq c1 c2 q,
  circ_compare nq c1 c2 = Some (Some q) -> ~ equal_on_all_states c1 c2.
Proof. exact circ_compare_witness. Qed.
Print Assumptions C12_circ_compare_witness.

(* the acceptance test before fix 7930d24: a swap made of three CX is replaced by nothing *)
Theorem C12_optimize_old_refuted :
  exists c news, optimize_old c news = [] /\ circ_equiv 2 c (optimize_old c news) = false /\
                 optimize c news = c.
Proof. exists cx_triple, [([], false)]. repeat split; vm_compute; reflexivity. Qed.
Print Assumptions C12_optimize_old_refuted.

Definition ex12 : circuit :=
  [mkg (K1 BH) [2] None; mkg KBarrier [] None; mkg (K1 BX) [0] None; mkg KCX [0; 1] None;
   mkg (K1 BX) [0] None; mkg KCX [0; 1] None; mkg KBarrier [] None; mkg (K1 BH) [2] None].

Example C12_example_optimize :
  optimize ex12 [([mkg (K1 BX) [1] None], true)] =
  [mkg (K1 BH) [2] None; mkg KBarrier [] None; mkg (K1 BX) [1] None; mkg KBarrier [] None; mkg (K1 BH) [2] None].
Proof. reflexivity. Qed.
Example C12_example_equiv :
  circ_equiv 3 (slice ex12 2 6) [mkg (K1 BX) [1] None] = true.
Proof. vm_compute. reflexivity. Qed.
Example C12_example_rejected_larger :
  optimize ex12 [([mkg (K1 BX) [1] None; mkg (K1 BX) [0] None; mkg (K1 BX) [0] None; mkg (K1 BX) [1] None; mkg (K1 BX) [1] None], true)] = ex12.
Proof. reflexivity. Qed.
Example C12_example_rejected_other_qubit :
  optimize ex12 [([mkg (K1 BX) [2] None], true)] = ex12.
Proof. reflexivity. Qed.
Example C12_example_not_equiv :
  circ_compare 2 cx_triple [] = Some (Some 0).
Proof. vm_compute. reflexivity. Qed.
