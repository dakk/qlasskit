(* P_Algo.v — theorems about the algorithm circuits of M_Algo.v under the exact
   amplitude semantics of Amp.v, for EVERY n and EVERY black box that is a clean
   xor-oracle (the conclusion c06_holds of Compiled.v, which the harness
   establishes per program with the verified checker c06_check).

   The X-family part of a circuit acts on basis indices (actf / actr); this action is the
   classical simulation fsim of Circ.v, and its amplitude semantics is psi' i = psi (actr c i).
   Key lemma oracle_on_class (oracle_action is its instance without spectator qubits): a clean
   xor-oracle circuit for f acts on the reference state like the abstract map
   (x, y, 0) |-> (x, y xor f x, 0).  From it: the Deutsch-Jozsa,
   Bernstein-Vazirani and Simon amplitudes for every n; the Grover circuit factors through
   the abstract oracle map (grover_amplitudes, grover_depends_only_on_f), its diffuser as
   coded is a reflection, the abstract state lives on 8 classes (f x, `_ret`, phase) that
   follow an integer recurrence, and the recurrence evaluated for 2..6 search qubits,
   1 <= M <= N/4 and the default iteration count gives gabs_amplifies.  The corollaries are
   stated about the amplitude functions (sandwich_amp, simon_amp, gabs); Prop_C15 / Prop_C16 compose
   them with the amplitude theorems under the harness's decisions. *)
From Coq Require Import List Bool NArith ZArith Arith Lia.
From QV Require Import Bits Bexp BexpTT Circ Compiled Amp WH M_Algo.
Import ListNotations.
Local Open Scope N_scope.

(* forward action (first gate first) and the action of the reversed list *)
Fixpoint actf (nq : nat) (c : circuit) (i : N) : N :=
  match c with
  | [] => i
  | g :: r => match aact_of nq g with AX cs t => actf nq r (xperm cs t i) | _ => actf nq r i end
  end.
Fixpoint actr (nq : nat) (c : circuit) (i : N) : N :=
  match c with
  | [] => i
  | g :: r => match aact_of nq g with AX cs t => xperm cs t (actr nq r i) | _ => actr nq r i end
  end.

Lemma xonly_cons nq g c : xonly nq (g :: c) = true -> is_x (aact_of nq g) = true /\ xonly nq c = true.
Proof. exact (proj1 (andb_true_iff (is_x (aact_of nq g)) (xonly nq c))). Qed.

Lemma actr_actf nq c : forall i, actr nq c (actf nq c i) = i.
Proof.
  induction c as [|g c IH]; intros i; cbn [actf actr]; [reflexivity|].
  pose proof (aact_of_wf nq g) as Hw. destruct (aact_of nq g); rewrite ?IH; try reflexivity.
  now apply xperm_invol.
Qed.
Lemma actf_actr nq c : forall i, actf nq c (actr nq c i) = i.
Proof.
  induction c as [|g c IH]; intros i; cbn [actf actr]; [reflexivity|].
  pose proof (aact_of_wf nq g) as Hw. destruct (aact_of nq g); rewrite ?IH; try reflexivity.
  rewrite xperm_invol by exact Hw. apply IH.
Qed.

Lemma ctl_nN cs i : ctl (nN cs) i = forallb (asg i) cs.
Proof. unfold ctl, nN. induction cs as [|c cs IH]; cbn [map forallb]; [reflexivity|]. now rewrite IH. Qed.

Lemma asg_xperm cs t i q :
  asg (xperm (nN cs) (N.of_nat t) i) q = fflip (asg i) cs t q.
Proof.
  unfold xperm, fflip. rewrite ctl_nN. destruct (forallb (asg i) cs).
  - unfold asg. rewrite flipq_bits. destruct (Nat.eqb_spec q t) as [->|Hne].
    + now rewrite N.eqb_refl.
    + destruct (N.eqb_spec (N.of_nat t) (N.of_nat q)) as [E|_]; [apply Nat2N.inj in E; congruence|apply xorb_false_r].
  - destruct (Nat.eqb_spec q t) as [->|_]; [now rewrite xorb_false_r|reflexivity].
Qed.

(* the index action IS the classical simulation of Circ.v, from any description of the index
   on a set Q of qubits that holds those below nq: the gates touch no others *)
Lemma fsim_actf nq c (Q : nat -> Prop) : xonly nq c = true -> (forall q, (q < nq)%nat -> Q q) ->
  forall f0 i, (forall q, Q q -> f0 q = asg i q) ->
  exists f, fsim f0 c = Some f /\ forall q, Q q -> f q = asg (actf nq c i) q.
Proof.
  intros Hx HQ. induction c as [|g c IH]; intros f0 i H0; cbn [fsim actf].
  - now exists f0.
  - apply xonly_cons in Hx as [Hg Hc].
    destruct (aact_of nq g) as [cs t| | | | |] eqn:Ea; try discriminate.
    + apply aact_of_AX in Ea as (cs' & t' & Ec & -> & -> & _ & Ht & Hcs). rewrite Ec. apply (IH Hc).
      intros q Hq. rewrite asg_xperm. unfold fflip.
      now rewrite (H0 q Hq), (H0 t'), (forallb_ext_in f0 (asg i) cs') by auto.
    + apply aact_of_AId in Ea. rewrite Ea. now apply IH.
Qed.

(* qubits at or beyond nq are never touched *)
Lemma actf_high nq c : forall i q, N.of_nat nq <= q -> N.testbit (actf nq c i) q = N.testbit i q.
Proof.
  induction c as [|g c IH]; intros i q Hq; cbn [actf]; [reflexivity|].
  destruct (aact_of nq g) as [cs t| | | | |] eqn:Ea; try now apply IH.
  rewrite IH by exact Hq. apply aact_of_AX in Ea as (cs' & t' & _ & -> & -> & _ & Ht & _).
  unfold xperm. destruct (ctl (nN cs') i); [|reflexivity]. apply flipq_testbit_other. lia.
Qed.

Lemma run_ref_classical nq c : xonly nq c = true -> forall psi k,
  exists psi', run_ref nq c (psi, k) = Some (psi', k) /\ forall i, psi' i = psi (actr nq c i).
Proof.
  induction c as [|g c IH]; intros Hx psi k; cbn [run_ref actr].
  - exists psi. now split.
  - apply xonly_cons in Hx as [Hg Hc].
    destruct (aact_of nq g) as [cs t| | | | |]; try discriminate; cbn [ref_step fst snd].
    + destruct (IH Hc (refX cs t psi) k) as (psi' & Hr & Hp). exists psi'. split; [exact Hr|].
      intros i. now rewrite Hp.
    + now apply IH.
Qed.

(* a permutation that agrees on a class of indices with an involution preserving the class:
   so does its inverse, and neither leaves the complement (the second half is what sends indices
   outside the class to indices outside it in oracle_on_class) *)
Lemma inverse_on_class (F R M : N -> N) (cl : N -> bool) :
  (forall i, R (F i) = i) -> (forall i, F (R i) = i) -> (forall i, M (M i) = i) ->
  (forall i, cl (M i) = cl i) -> (forall i, cl i = true -> F i = M i) ->
  forall i, if cl i then R i = M i else cl (R i) = false.
Proof.
  intros HRF HFR HM Hcl HF i. destruct (cl i) eqn:Hc.
  - rewrite <- (HM i) at 1. rewrite <- (HF (M i)) by now rewrite Hcl. apply HRF.
  - destruct (cl (R i)) eqn:E; [|reflexivity]. pose proof (HF _ E) as H. rewrite HFR in H.
    now rewrite H, Hcl, E in Hc.
Qed.

Lemma aact_of_mono nq NQ g : (nq <= NQ)%nat -> aact_of nq g <> ANone -> aact_of NQ g = aact_of nq g.
Proof.
  intros Hle. unfold aact_of, qs_ok. destruct (forallb (fun q => (q <? nq)%nat) (gqs g)) eqn:E; cbn [andb negb]; [|congruence].
  replace (forallb (fun q => (q <? NQ)%nat) (gqs g)) with true; [reflexivity|].
  symmetry. rewrite forallb_forall in *. intros q Hq. specialize (E q Hq). apply Nat.ltb_lt in E. apply Nat.ltb_lt. lia.
Qed.
Lemma run_ref_mono nq NQ c : (nq <= NQ)%nat -> xonly nq c = true -> forall s, run_ref NQ c s = run_ref nq c s.
Proof.
  intros Hle. induction c as [|g c IH]; intros Hx s; [reflexivity|]. cbn [run_ref].
  apply xonly_cons in Hx as [Hg Hc].
  rewrite (aact_of_mono nq NQ g Hle) by (intros E; rewrite E in Hg; discriminate).
  destruct (ref_step (aact_of nq g) s); [now apply IH|reflexivity].
Qed.

Section Oracle.
  Variables (n nq : nat) (ds : defs) (ret out : nat).
  Hypothesis Hout : (n <= out < nq)%nat.

  (* the predicate the oracle computes *)
  Definition ofun (x : N) : bool := run_defs (asg x) ds ret.
  Definition lowpart (i : N) : N := N.land i (N.ones (N.of_nat n)).
  (* only the search register and the output qubit may be non-zero *)
  Definition cleanb (i : N) : bool :=
    N.eqb (N.ldiff i (N.lor (N.ones (N.of_nat n)) (bitm (N.of_nat out)))) 0.
  (* (x, y, 0) |-> (x, y xor f x, 0) *)
  Definition omap (i : N) : N := if ofun (lowpart i) then flipq (N.of_nat out) i else i.

  Lemma lowpart_bits i j : N.testbit (lowpart i) j = (j <? N.of_nat n) && N.testbit i j.
  Proof using. unfold lowpart. now rewrite N.land_spec, ones_bits, andb_comm. Qed.
  Lemma lowpart_inr i : inr n (lowpart i).
  Proof using.
    apply inr_bits. intros m Hm. rewrite lowpart_bits. apply N.ltb_ge in Hm. now rewrite Hm.
  Qed.
  Lemma lowpart_ext a b : (forall j, j < N.of_nat n -> N.testbit a j = N.testbit b j) -> lowpart a = lowpart b.
  Proof using.
    intros H. apply N.bits_inj. intros j. rewrite !lowpart_bits. destruct (N.ltb_spec j (N.of_nat n)); [|reflexivity].
    cbn [andb]. now apply H.
  Qed.
  Lemma lowpart_id x : inr n x -> lowpart x = x.
  Proof using.
    intros H. apply N.bits_inj. intros j. rewrite lowpart_bits.
    destruct (N.ltb_spec j (N.of_nat n)) as [Hj|Hj]; [reflexivity|]. symmetry. now apply (inr_high n x).
  Qed.

  Lemma cleanb_mask j :
    N.testbit (N.lor (N.ones (N.of_nat n)) (bitm (N.of_nat out))) j = (j <? N.of_nat n) || N.eqb (N.of_nat out) j.
  Proof using. now rewrite N.lor_spec, ones_bits, bitm_bits. Qed.

  Lemma cleanb_spec i : cleanb i = true <->
    (forall j, N.testbit i j = true -> j < N.of_nat n \/ j = N.of_nat out).
  Proof using.
    unfold cleanb. rewrite within_spec. split; intros H j Hj; specialize (H j Hj).
    - rewrite cleanb_mask, orb_true_iff, N.ltb_lt, N.eqb_eq in H. destruct H as [H| <-]; auto.
    - rewrite cleanb_mask, orb_true_iff, N.ltb_lt, N.eqb_eq. destruct H as [H| ->]; auto.
  Qed.

  Lemma cleanb_false_spec i : cleanb i = false <->
    exists j, N.testbit i j = true /\ N.of_nat n <= j /\ j <> N.of_nat out.
  Proof using Hout.
    split.
    - intros H. unfold cleanb in H. apply N.eqb_neq in H.
      (* the highest bit of the offending part *)
      pose proof (N.bit_log2 _ H) as Hb. set (j := N.log2 _) in Hb.
      rewrite N.ldiff_spec, cleanb_mask in Hb.
      apply andb_true_iff in Hb as [H1 H2]. apply negb_true_iff, orb_false_iff in H2 as [H2 H3].
      exists j. apply N.ltb_ge in H2. apply N.eqb_neq in H3. auto.
    - intros (j & Hj & Hn & Ho). destruct (cleanb i) eqn:E; [|reflexivity].
      rewrite cleanb_spec in E. destruct (E j Hj); [lia|contradiction].
  Qed.

  Lemma cleanb_flip i : cleanb (flipq (N.of_nat out) i) = cleanb i.
  Proof using. apply within_flipq. now rewrite cleanb_mask, N.eqb_refl, orb_true_r. Qed.

  Lemma lowpart_flip i : lowpart (flipq (N.of_nat out) i) = lowpart i.
  Proof using Hout. apply lowpart_ext. intros j Hj. apply flipq_testbit_other. lia. Qed.

  Lemma omap_clean i : cleanb (omap i) = cleanb i.
  Proof using. unfold omap. destruct (ofun (lowpart i)); [apply cleanb_flip|reflexivity]. Qed.
  Lemma omap_low i : lowpart (omap i) = lowpart i.
  Proof using Hout. unfold omap. destruct (ofun (lowpart i)); [apply lowpart_flip|reflexivity]. Qed.
  Lemma omap_out i :
    N.testbit (omap i) (N.of_nat out) = xorb (N.testbit i (N.of_nat out)) (ofun (lowpart i)).
  Proof using.
    unfold omap. destruct (ofun (lowpart i)); [|now rewrite xorb_false_r].
    now rewrite flipq_testbit, xorb_true_r.
  Qed.
  Lemma omap_invol i : omap (omap i) = i.
  Proof using Hout.
    unfold omap at 1. rewrite omap_low. unfold omap. destruct (ofun (lowpart i)); [apply flipq_invol|reflexivity].
  Qed.

End Oracle.

Section OracleHi.
  Variables (n nq : nat) (c : circuit) (ds : defs) (ret out : nat).
  Hypothesis Hout : (n <= out < nq)%nat.
  Hypothesis Hx : xonly nq c = true.
  Hypothesis H06 : c06_holds n nq c ds ret out.

  (* the oracle inside a larger register: qubits >= nq ride along; lpq is lowpart nq *)
  Definition lpq (i : N) : N := N.land i (N.ones (N.of_nat nq)).
  (* qubits n..nq-1 other than the output qubit are zero; qubits >= nq arbitrary *)
  Definition cleanq (i : N) : bool := cleanb n out (lpq i).

  Lemma lpq_bits i j : N.testbit (lpq i) j = (j <? N.of_nat nq) && N.testbit i j.
  Proof using. apply (lowpart_bits nq). Qed.

  Lemma omap_cleanq i : cleanq (omap n ds ret out i) = cleanq i.
  Proof using Hout.
    unfold omap, cleanq. destruct (ofun ds ret (lowpart n i)); [|reflexivity]. rewrite <- (cleanb_flip n out (lpq i)). f_equal.
    apply N.bits_inj. intros j. rewrite lpq_bits, !flipq_bits, lpq_bits.
    destruct (N.ltb_spec j (N.of_nat nq)); [reflexivity|]. destruct (N.eqb_spec (N.of_nat out) j); [lia|reflexivity].
  Qed.

  (* below nq a clean index is the basis state the C06 checker starts from *)
  Lemma basis6_clean i : cleanq i = true -> forall q, (q < nq)%nat ->
    basis6 n out (lowpart n i) (N.testbit i (N.of_nat out)) q = asg i q.
  Proof using Hout.
    intros Hc q Hq. unfold basis6, asg. rewrite lowpart_bits.
    destruct (Nat.ltb_spec q n) as [Hl|Hl].
    - destruct (N.ltb_spec (N.of_nat q) (N.of_nat n)); [reflexivity|lia].
    - destruct (Nat.eqb_spec q out) as [->|Hne]; [reflexivity|].
      destruct (N.testbit i (N.of_nat q)) eqn:E; [|reflexivity].
      destruct (proj1 (cleanb_spec n out (lpq i)) Hc (N.of_nat q)) as [H1|H1]; [|lia|apply Nat2N.inj in H1; congruence].
      rewrite lpq_bits, E. apply andb_true_iff. split; [apply N.ltb_lt; lia|reflexivity].
  Qed.

  (* on a clean index the circuit IS the abstract map (from c06_holds): below nq both are
     clean with the same search bits and the same output bit, beyond nq both are untouched *)
  Lemma actf_clean i : cleanq i = true -> actf nq c i = omap n ds ret out i.
  Proof using Hout Hx H06.
    intros Hc.
    destruct (H06 (lowpart n i) (lowpart_inr n i) (N.testbit i (N.of_nat out))) as (f & Hf & Hq).
    destruct (fsim_actf nq c _ Hx (fun q Hq => Hq) _ i (basis6_clean i Hc)) as (f2 & Hf2 & Hq2).
    rewrite Hf in Hf2. injection Hf2 as <-.
    apply N.bits_inj. intros j. destruct (N.lt_ge_cases j (N.of_nat nq)) as [Hj|Hj].
    - rewrite <- (N2Nat.id j). change (asg (actf nq c i) (N.to_nat j) = asg (omap n ds ret out i) (N.to_nat j)).
      rewrite <- Hq2, Hq, <- basis6_clean by (lia || now rewrite omap_cleanq).
      now rewrite (omap_low n nq), omap_out.
    - rewrite actf_high by exact Hj. unfold omap. destruct (ofun ds ret (lowpart n i)); [|reflexivity].
      symmetry. apply flipq_testbit_other. lia.
  Qed.

  (* cl is a class of clean indices that the abstract map preserves.  In a register
     of NQ >= nq qubits the oracle circuit, run on ANY reference state, permutes the amplitudes
     of the basis states in cl by (x, y, 0, rest) |-> (x, y xor f x, 0, rest) and maps basis
     states outside cl to basis states outside cl. *)
  Lemma oracle_on_class (cl : N -> bool) NQ psi k : (nq <= NQ)%nat ->
    (forall i, cl i = true -> cleanq i = true) -> (forall i, cl (omap n ds ret out i) = cl i) ->
    exists psi', run_ref NQ c (psi, k) = Some (psi', k) /\
      (forall i, cl i = true -> psi' i = psi (omap n ds ret out i)) /\
      (forall i, cl i = false -> exists j, cl j = false /\ psi' i = psi j).
  Proof using Hout Hx H06.
    intros Hle Hcl Hom. rewrite (run_ref_mono nq NQ c Hle Hx).
    destruct (run_ref_classical nq c Hx psi k) as (psi' & Hr & Hp). exists psi'. split; [exact Hr|].
    pose proof (inverse_on_class (actf nq c) (actr nq c) (omap n ds ret out) cl
      (actr_actf nq c) (actf_actr nq c) (omap_invol n nq ds ret out Hout) Hom (fun i Hi => actf_clean i (Hcl i Hi))) as Hinv.
    split; intros i Hc; specialize (Hinv i); rewrite Hc in Hinv.
    - now rewrite Hp, Hinv.
    - now exists (actr nq c i).
  Qed.

  Theorem oracle_action_in NQ psi k : (nq <= NQ)%nat ->
    exists psi', run_ref NQ c (psi, k) = Some (psi', k) /\
      (forall i, cleanq i = true -> psi' i = psi (omap n ds ret out i)) /\
      (forall i, cleanq i = false -> exists j, cleanq j = false /\ psi' i = psi j).
  Proof using Hout Hx H06. intros Hle. apply oracle_on_class; [exact Hle|auto|exact omap_cleanq]. Qed.

  (* without spectators: a clean index has no bit at or beyond nq *)
  Lemma cleanb_cleanq i : cleanb n out i = true -> cleanq i = true.
  Proof using Hout.
    intros Hc. unfold cleanq. replace (lpq i) with i; [exact Hc|]. apply N.bits_inj. intros j. rewrite lpq_bits.
    destruct (N.ltb_spec j (N.of_nat nq)) as [H|H]; [reflexivity|].
    destruct (N.testbit i j) eqn:E; [|reflexivity]. destruct (proj1 (cleanb_spec n out i) Hc j E); lia.
  Qed.

  Corollary oracle_action psi k :
    exists psi', run_ref nq c (psi, k) = Some (psi', k) /\
      (forall i, cleanb n out i = true -> psi' i = psi (omap n ds ret out i)) /\
      (forall i, cleanb n out i = false -> exists j, cleanb n out j = false /\ psi' i = psi j).
  Proof using Hout Hx H06. apply oracle_on_class; [lia|exact cleanb_cleanq|exact (omap_clean n ds ret out)]. Qed.

  (* for a state supported on the clean basis states *)
  Corollary oracle_action_clean psi k : (forall i, cleanb n out i = false -> psi i = 0%Z) ->
    exists psi', run_ref nq c (psi, k) = Some (psi', k) /\
      forall i, psi' i = if cleanb n out i then psi (omap n ds ret out i) else 0%Z.
  Proof using Hout Hx H06.
    intros Hs. destruct (oracle_action psi k) as (psi' & Hr & H1 & H2). exists psi'. split; [exact Hr|].
    intros i. destruct (cleanb n out i) eqn:E; [now apply H1|].
    destruct (H2 i E) as (j & Hj & ->). now apply Hs.
  Qed.
End OracleHi.

Lemma run_ref_bar nq r s : run_ref nq (gBar :: r) s = run_ref nq r s.
Proof. reflexivity. Qed.
Lemma run_ref_H nq q r psi k : (q < nq)%nat ->
  run_ref nq (gH q :: r) (psi, k) = run_ref nq r (refH (N.of_nat q) psi, S k).
Proof. intros H. apply Nat.ltb_lt in H. cbn [run_ref]. unfold aact_of, gH, qs_ok. cbn -[Nat.ltb N.of_nat]. now rewrite H. Qed.
Lemma run_ref_X nq q r psi k : (q < nq)%nat ->
  run_ref nq (gX q :: r) (psi, k) = run_ref nq r (refX [] (N.of_nat q) psi, k).
Proof. intros H. apply Nat.ltb_lt in H. cbn [run_ref]. unfold aact_of, gX, qs_ok. cbn -[Nat.ltb N.of_nat]. now rewrite H. Qed.
Lemma run_ref_Z nq q r psi k : (q < nq)%nat ->
  run_ref nq (gZ q :: r) (psi, k) = run_ref nq r (refZ [N.of_nat q] psi, k).
Proof. intros H. apply Nat.ltb_lt in H. cbn [run_ref]. unfold aact_of, gZ, qs_ok. cbn -[Nat.ltb N.of_nat]. now rewrite H. Qed.

Lemma run_ref_MCZ NQ cs t r psi k : (forall q, In q (cs ++ [t]) -> (q < NQ)%nat) -> NoDup (cs ++ [t]) ->
  run_ref NQ (gMCZ cs t :: r) (psi, k) = run_ref NQ r (refZ (nN (cs ++ [t])) psi, k).
Proof.
  intros Hlt Hnd. cbn [run_ref]. unfold aact_of, gMCZ. cbn [gqs gkind].
  assert (Hok : qs_ok NQ (cs ++ [t]) = true).
  { unfold qs_ok. rewrite (proj2 (nodupb_NoDup _) Hnd), andb_true_r. apply forallb_forall. intros q Hq. apply Nat.ltb_lt. now apply Hlt. }
  rewrite Hok. cbn [negb]. unfold cact_of. cbn [gkind x_controls gqs].
  rewrite app_length. cbn [length]. rewrite Nat.add_1_r, Nat.eqb_refl. reflexivity.
Qed.

Lemma refX0 q phi i : refX [] q phi i = phi (flipq q i).
Proof. reflexivity. Qed.
Lemma refZ1 q phi i : refZ [q] phi i = sgn (N.testbit i q) (phi i).
Proof. unfold refZ. cbn [ctl forallb]. now rewrite andb_true_r. Qed.

(* gate by gate = the layer: the link between the circuit and the WH algebra *)
Lemma run_ref_hlayer nq n : (n <= nq)%nat -> forall psi k,
  run_ref nq (h_layer n) (psi, k) = Some (hlayer n psi, (k + n)%nat).
Proof.
  induction n as [|n IH]; intros Hn psi k.
  - cbn. now rewrite Nat.add_0_r.
  - unfold h_layer. rewrite seq_S, map_app, run_ref_app. fold (h_layer n). rewrite IH by lia. cbn [map app Nat.add]. rewrite run_ref_H by lia. cbn [run_ref hlayer].
    now rewrite Nat.add_succ_r.
Qed.
Lemma run_ref_hlayer0 nq n psi : (n <= nq)%nat -> run_ref nq (h_layer n) (psi, 0%nat) = Some (hlayer n psi, n).
Proof. intros H. now apply run_ref_hlayer. Qed.

(* |0..0> after the first Hadamard layer: uniform over the search register *)
Definition highz (n : nat) (i : N) : bool := N.eqb (N.ldiff i (N.ones (N.of_nat n))) 0.

Lemma highz_spec n i : highz n i = true <-> (forall j, N.of_nat n <= j -> N.testbit i j = false).
Proof.
  unfold highz. rewrite within_spec. split; intros H j.
  - intros Hj. destruct (N.testbit i j) eqn:E; [|reflexivity]. apply H in E. rewrite ones_bits in E. apply N.ltb_lt in E. lia.
  - intros Hj. rewrite ones_bits. apply N.ltb_lt. destruct (N.lt_ge_cases j (N.of_nat n)) as [Hl|Hl]; [exact Hl|].
    rewrite H in Hj by exact Hl. discriminate.
Qed.
Lemma highz_inr n i : highz n i = true <-> inr n i.
Proof. rewrite highz_spec. symmetry. apply inr_bits. Qed.
Lemma highz_ext m a b : (forall j, N.of_nat m <= j -> N.testbit a j = N.testbit b j) -> highz m a = highz m b.
Proof. intros H. apply within_ext. intros j Hj. apply H. rewrite ones_bits in Hj. now apply N.ltb_ge. Qed.

(* the output qubit (any qubit out beyond the search register) on top of the uniform state *)
Section Prep.
  Variables (n out : nat).
  Hypothesis Ho : (n <= out)%nat.
  Local Notation r := (N.of_nat out).
  Local Notation clean := (cleanb n out).

  (* output qubit in |0> - |1>, search register uniform, everything else 0 *)
  Definition prep_state (i : N) : Z := if clean i then sgn (N.testbit i r) 1%Z else 0%Z.

  (* nothing beyond the search register = clean, and the output qubit is 0 *)
  Lemma highz_clean i : highz n i = clean i && negb (N.testbit i r).
  Proof using Ho.
    apply eq_true_iff_eq. rewrite andb_true_iff, negb_true_iff, highz_spec, cleanb_spec. split.
    - intros H. split; [|apply H; lia].
      intros j Hj. left. destruct (N.lt_ge_cases j (N.of_nat n)) as [Hl|Hl]; [exact Hl|]. rewrite H in Hj by exact Hl. discriminate.
    - intros [H Hr] j Hj. destruct (N.testbit i j) eqn:E; [|reflexivity].
      destruct (H j E) as [Hl| ->]; [lia|congruence].
  Qed.
  Lemma highz_flip i : highz n (flipq r i) = clean i && N.testbit i r.
  Proof using Ho. now rewrite highz_clean, cleanb_flip, flipq_testbit, negb_involutive. Qed.

  (* X then H on the output qubit (Deutsch-Jozsa) *)
  Lemma prep_dj psi : (forall i, psi i = if highz n i then 1%Z else 0%Z) ->
    forall i, refH r (refX [] r psi) i = prep_state i.
  Proof using Ho.
    intros Hp i. rewrite refH_flipq, !refX0, flipq_invol, !Hp, highz_flip, highz_clean. unfold prep_state.
    destruct (clean i), (N.testbit i r); reflexivity.
  Qed.
  (* H on the output qubit *)
  Lemma refH_uniform psi : (forall i, psi i = if highz n i then 1%Z else 0%Z) ->
    forall i, refH r psi i = if clean i then 1%Z else 0%Z.
  Proof using Ho.
    intros Hp i. rewrite refH_flipq, !Hp, highz_flip, highz_clean.
    destruct (clean i), (N.testbit i r); reflexivity.
  Qed.
  (* H then Z on the output qubit (Bernstein-Vazirani) *)
  Lemma prep_bv psi : (forall i, psi i = if highz n i then 1%Z else 0%Z) ->
    forall i, refZ [r] (refH r psi) i = prep_state i.
  Proof using Ho.
    intros Hp i. rewrite refZ1, (refH_uniform psi Hp). unfold prep_state.
    destruct (clean i); [reflexivity|apply sgn_0].
  Qed.
End Prep.

Lemma cleanb_highz n i : cleanb n n i = highz (S n) i.
Proof.
  apply eq_true_iff_eq. rewrite cleanb_spec, highz_spec. split.
  - intros H j Hj. destruct (N.testbit i j) eqn:E; [apply H in E; lia|reflexivity].
  - intros H j Hj. destruct (N.lt_ge_cases j (N.of_nat (S n))) as [Hl|Hl]; [lia|]. rewrite H in Hj by exact Hl. discriminate.
Qed.

(* one more H extends the uniform state by one qubit *)
Lemma hlayer_delta0 n : forall i, hlayer n delta0 i = if highz n i then 1%Z else 0%Z.
Proof.
  induction n as [|n IH]; intros i; cbn [hlayer].
  - unfold delta0, highz. change (N.ones (N.of_nat 0)) with 0. now rewrite N.ldiff_0_r.
  - now rewrite (refH_uniform n n (le_n n) _ IH), cleanb_highz.
Qed.

Section Sandwich.
  Variables (n nq : nat) (c : circuit) (ds : defs) (ret out : nat).
  Hypothesis Hout : (n <= out < nq)%nat.
  Hypothesis Hx : xonly nq c = true.
  Hypothesis H06 : c06_holds n nq c ds ret out.
  Local Notation r := (N.of_nat out).
  Local Notation f := (ofun ds ret).
  Local Notation clean := (cleanb n out).

  Lemma clean_setlow i x : clean (setlow n i x) = clean i.
  Proof using.
    apply within_ext. intros j Hj. rewrite cleanb_mask in Hj. apply orb_false_iff in Hj as [Hj _].
    now rewrite setlow_bits, Hj.
  Qed.
  Lemma lowpart_setlow i x : inr n x -> lowpart n (setlow n i x) = x.
  Proof using.
    intros Hxx. rewrite <- (lowpart_id n x Hxx) at 2. apply lowpart_ext. intros j Hj.
    apply N.ltb_lt in Hj. now rewrite setlow_bits, Hj.
  Qed.

  Lemma r_setlow i x : N.testbit (setlow n i x) r = N.testbit i r.
  Proof using Hout. apply setlow_high. lia. Qed.

  (* amplitude of the basis state i after the sandwich (denominator sqrt(2)^(2n+1)) *)
  Definition sandwich_amp (i : N) : Z :=
    if clean i then sgn (N.testbit i r) (sumN n (fun x => sgn (xorb (dotb n x i) (f x)) 1%Z)) else 0%Z.

  (* H-layer ; preparation of the output qubit ; oracle ; H-layer, whatever gates prepare
     the output qubit *)
  Lemma sandwich prep :
    (exists psi, run_ref nq prep (hlayer n delta0, n) = Some (psi, S n) /\ forall i, psi i = prep_state n out i) ->
    exists psi, run_ref nq ([gBar] ++ h_layer n ++ prep ++ [gBar] ++ c ++ [gBar] ++ h_layer n) (delta0, 0%nat)
                = Some (psi, (2 * n + 1)%nat) /\ forall i, psi i = sandwich_amp i.
  Proof using H06 Hout Hx.
    intros (psi & Hprep & Hp). cbn [app]. rewrite run_ref_bar, run_ref_app, run_ref_hlayer0, run_ref_app, Hprep by lia.
    cbn [app]. rewrite run_ref_bar, run_ref_app.
    destruct (oracle_action_clean n nq c ds ret out Hout Hx H06 psi (S n)) as (psi4 & Hr & H4).
    { intros i Hc. rewrite Hp. unfold prep_state. now rewrite Hc. }
    rewrite Hr. cbn [app]. rewrite run_ref_bar, run_ref_hlayer by lia.
    eexists. split; [do 2 f_equal; lia|]. intros i. rewrite hlayer_WH. unfold WH, sandwich_amp.
    assert (E : forall x, inr n x -> sgn (dotb n x i) (psi4 (setlow n i x)) =
              if clean i then sgn (N.testbit i r) (sgn (xorb (dotb n x i) (f x)) 1%Z) else 0%Z).
    { intros x Hxx. rewrite H4, clean_setlow. destruct (clean i) eqn:Ec; [|apply sgn_0].
      rewrite Hp. unfold prep_state. rewrite omap_clean, clean_setlow, Ec.
      rewrite omap_out, lowpart_setlow, r_setlow by exact Hxx.
      destruct (N.testbit i r), (dotb n x i), (f x); reflexivity. }
    rewrite (sumN_ext n _ _ E). destruct (clean i); [apply sumN_sgn|apply sumN_zero].
  Qed.

  Theorem dj_amplitudes :
    exists psi, run_ref nq (dj_circuit n out c) (delta0, 0%nat) = Some (psi, (2 * n + 1)%nat) /\
      forall i, psi i = sandwich_amp i.
  Proof using H06 Hout Hx.
    apply (sandwich [gX out; gH out]). rewrite run_ref_X, run_ref_H by lia.
    eexists. split; [reflexivity|]. apply prep_dj, hlayer_delta0. lia.
  Qed.

  (* same sandwich, the output qubit prepared with H ; Z *)
  Theorem bv_amplitudes :
    exists psi, run_ref nq (bv_circuit n out c) (delta0, 0%nat) = Some (psi, (2 * n + 1)%nat) /\
      forall i, psi i = sandwich_amp i.
  Proof using H06 Hout Hx.
    apply (sandwich [gH out; gZ out]). rewrite run_ref_H, run_ref_Z by lia.
    eexists. split; [reflexivity|]. apply prep_bv, hlayer_delta0. lia.
  Qed.
End Sandwich.

(* sum over x of (-1)^(f x) *)
Definition fsum (n : nat) (f : N -> bool) : Z := sumN n (fun x => sgn (f x) 1%Z).
(* number of x with f x = true *)
Definition fcount (n : nat) (f : N -> bool) : Z := sumN n (fun x => if f x then 1%Z else 0%Z).

Lemma fsum_count n f : fsum n f = (pow2z n - 2 * fcount n f)%Z.
Proof.
  unfold fsum, fcount.
  rewrite (sumN_ext n _ (fun x => (1 + (-2) * (if f x then 1 else 0))%Z)) by (intros x _; destruct (f x); reflexivity).
  rewrite sumN_add, sumN_scale, sumN_const. lia.
Qed.

Lemma pow2z_double n : pow2z (2 * n + 1) = (2 * (pow2z n * pow2z n))%Z.
Proof.
  replace (2 * n + 1)%nat with (S (n + n)) by lia. rewrite pow2z_S. unfold pow2z.
  now rewrite Nat2Z.inj_add, Z.pow_add_r by lia.
Qed.

Lemma cleanb_lowz n out i : lowz n i = true -> cleanb n out i = true ->
  i = 0 \/ i = bitm (N.of_nat out).
Proof.
  intros Hl Hc. rewrite lowz_spec in Hl. rewrite cleanb_spec in Hc.
  destruct (N.testbit i (N.of_nat out)) eqn:E.
  - right. apply N.bits_inj. intros j. rewrite bitm_bits.
    destruct (N.eqb_spec (N.of_nat out) j) as [<-|Hne]; [exact E|].
    destruct (N.testbit i j) eqn:Ej; [|reflexivity]. destruct (Hc j Ej) as [H|H]; [|congruence].
    rewrite Hl in Ej by exact H. discriminate.
  - left. apply N.bits_inj_0. intros j. destruct (N.testbit i j) eqn:Ej; [|reflexivity].
    destruct (Hc j Ej) as [H|H]; [rewrite Hl in Ej by exact H; discriminate|congruence].
Qed.

Lemma cleanb_0 n out : cleanb n out 0 = true.
Proof. apply cleanb_spec. intros j. rewrite N.bits_0. discriminate. Qed.
Lemma cleanb_bitm n out : cleanb n out (bitm (N.of_nat out)) = true.
Proof.
  apply cleanb_spec. intros j. rewrite bitm_bits. intros H. apply N.eqb_eq in H. now right.
Qed.
Lemma cleanb_inr n out x : inr n x -> cleanb n out x = true.
Proof.
  intros Hx. apply cleanb_spec. intros j Hj. left. destruct (N.lt_ge_cases j (N.of_nat n)) as [H|H]; [exact H|].
  rewrite (inr_high n x j Hx H) in Hj. discriminate.
Qed.
Lemma lowz_bitm n out : (n <= out)%nat -> lowz n (bitm (N.of_nat out)) = true.
Proof.
  intros H. apply lowz_spec. intros j Hj. rewrite bitm_bits. apply N.eqb_neq. lia.
Qed.

(* what the sandwich amplitudes say about the all-zero search outcome *)
Section DJ.
  Variables (n : nat) (ds : defs) (ret out : nat).
  Hypothesis Ho : (n <= out)%nat.
  Local Notation f := (ofun ds ret).
  Local Notation amp := (sandwich_amp n ds ret out).

  Lemma amp_lowz i : lowz n i = true ->
    amp i = if cleanb n out i then sgn (N.testbit i (N.of_nat out)) (fsum n f) else 0%Z.
  Proof using.
    intros Hl. unfold sandwich_amp. destruct (cleanb n out i); [|reflexivity]. f_equal.
    apply sumN_ext. intros x _. rewrite dotb_lowz by exact Hl. now rewrite xorb_false_l.
  Qed.

  (* amplitude  +- sum_x (-1)^(f x)  on the two basis states (output qubit 0 / 1, scratch 0),
     zero on every other basis state whose search bits are all zero *)
  Theorem dj_zero_outcome :
    amp 0 = fsum n f /\ amp (bitm (N.of_nat out)) = (- fsum n f)%Z /\
    (forall i, lowz n i = true -> i <> 0 -> i <> bitm (N.of_nat out) -> amp i = 0%Z).
  Proof using Ho.
    repeat split.
    - now rewrite amp_lowz, cleanb_0, N.bits_0 by apply lowz_0.
    - now rewrite amp_lowz, cleanb_bitm, bitm_bits, N.eqb_refl by now apply lowz_bitm.
    - intros i Hl H0 H1. rewrite amp_lowz by exact Hl. destruct (cleanb n out i) eqn:Ec; [|reflexivity].
      destruct (cleanb_lowz n out i Hl Ec); contradiction.
  Qed.

  (* constant f: the all-zero outcome has probability 1
     (numerators of the two basis states add up to the denominator 2^(2n+1)) *)
  Corollary dj_constant b : (forall x, inr n x -> f x = b) ->
    (amp 0 * amp 0 + amp (bitm (N.of_nat out)) * amp (bitm (N.of_nat out)))%Z = pow2z (2 * n + 1).
  Proof using Ho.
    intros Hc. destruct dj_zero_outcome as (-> & -> & _).
    unfold fsum. rewrite (sumN_ext n _ (fun _ => sgn b 1%Z)) by (intros x Hxx; now rewrite Hc).
    rewrite sumN_const, pow2z_double. destruct b; cbn [sgn]; lia.
  Qed.

  (* balanced f (as many x with f x = 1 as with f x = 0): the all-zero outcome never occurs *)
  Corollary dj_balanced : (2 * fcount n f = pow2z n)%Z -> forall i, lowz n i = true -> amp i = 0%Z.
  Proof using Ho.
    intros Hb i Hl. rewrite amp_lowz by exact Hl.
    replace (fsum n f) with 0%Z by (rewrite fsum_count; lia). destruct (cleanb n out i); [apply sgn_0|reflexivity].
  Qed.
End DJ.

(* secret_oracle(isize, secret) denotes x |-> secret . x *)
Lemma secret_expr_spec n s x : beval (asg x) (secret_expr n s) = dotb n s x.
Proof.
  unfold secret_expr. rewrite beval_xor. induction n as [|n IH]; [reflexivity|].
  rewrite seq_S, !map_app. cbn [map Nat.add]. rewrite fold_xorb_app, IH. cbn [dotb]. rewrite xorb_comm. f_equal.
  rewrite beval_and. cbn [forallb]. unfold beval. cbn [geval]. unfold asg.
  rewrite andb_true_r, andb_comm. destruct (N.testbit s (N.of_nat n)); reflexivity.
Qed.

Lemma ofun_secret rs n s x : ofun [(rs, secret_expr n s)] rs x = dotb n s x.
Proof.
  unfold ofun. rewrite run_defs_cons. unfold run_defs. cbn [fold_left]. rewrite Nat.eqb_refl. apply secret_expr_spec.
Qed.

Lemma lowz_lxor_lowpart n i s : inr n s -> lowz n (N.lxor i s) = N.eqb (lowpart n i) s.
Proof.
  intros Hs. apply eq_true_iff_eq. rewrite lowz_spec, N.eqb_eq. split.
  - intros H. apply N.bits_inj. intros j. rewrite lowpart_bits.
    destruct (N.ltb_spec j (N.of_nat n)) as [Hj|Hj]; cbn [andb].
    + specialize (H j Hj). rewrite N.lxor_spec in H. now apply xorb_eq.
    + symmetry. now apply (inr_high n s).
  - intros <- j Hj. rewrite N.lxor_spec, lowpart_bits. apply N.ltb_lt in Hj. rewrite Hj. apply xorb_nilpotent.
Qed.

(* the sandwich amplitudes when the oracle computes secret_oracle(n, s) *)
Section BV.
  Variables (n rs out : nat) (s : N).
  Hypothesis Ho : (n <= out)%nat.
  Hypothesis Hs : inr n s.
  Local Notation amp := (sandwich_amp n [(rs, secret_expr n s)] rs out).

  (* all the amplitude sits on the two basis states (search register = s, output 0/1) *)
  Theorem bv_outcome i :
    amp i = if cleanb n out i && N.eqb (lowpart n i) s then sgn (N.testbit i (N.of_nat out)) (pow2z n) else 0%Z.
  Proof using Hs.
    unfold sandwich_amp. destruct (cleanb n out i); cbn [andb]; [|reflexivity].
    rewrite (sumN_ext n _ (fun x => sgn (dotb n x (N.lxor i s)) 1%Z)).
    - rewrite char_sum, (lowz_lxor_lowpart n i s Hs). destruct (N.eqb (lowpart n i) s); [reflexivity|apply sgn_0].
    - intros x _. rewrite ofun_secret, dotb_lxor_r. f_equal. f_equal. apply dotb_comm.
  Qed.

  (* hence the outcome s has probability 1 *)
  Corollary bv_certain :
    (amp s * amp s + amp (N.lor s (bitm (N.of_nat out))) * amp (N.lor s (bitm (N.of_nat out))))%Z = pow2z (2 * n + 1) /\
    forall i, lowpart n i <> s -> amp i = 0%Z.
  Proof using Ho Hs.
    assert (Hb : N.testbit s (N.of_nat out) = false) by (apply (inr_high n s); [exact Hs|lia]).
    (* the second basis state is s with the output qubit flipped *)
    assert (E : N.lor s (bitm (N.of_nat out)) = flipq (N.of_nat out) s).
    { change (N.setbit s (N.of_nat out) = flipq (N.of_nat out) s). now rewrite setbit_flipq, Hb. }
    split.
    - rewrite E, !bv_outcome, cleanb_flip, (lowpart_flip n (S out) out (conj Ho (le_n _))), flipq_testbit, Hb,
        (cleanb_inr n out s Hs), (lowpart_id n s Hs), N.eqb_refl.
      cbn [andb negb sgn]. rewrite pow2z_double. lia.
    - intros i Hne. rewrite bv_outcome. apply N.eqb_neq in Hne. now rewrite Hne, andb_false_r.
  Qed.
End BV.

(* the classical simulation from |x>|0..0> reads off the index action *)
Lemma fsim_basis_actf n nq c y f : xonly nq c = true -> inr n y -> fsim (basis n y) c = Some f ->
  forall q, f q = N.testbit (actf nq c y) (N.of_nat q).
Proof.
  intros Hx Hy Hf q.
  destruct (fsim_actf nq c (fun _ => True) Hx (fun _ _ => I) _ y (fun q _ => basis_asg n y q Hy)) as (f2 & Hf2 & Hq2).
  rewrite Hf in Hf2. injection Hf2 as <-. now apply Hq2.
Qed.

(* inputs preserved, from the verified C03 checker's conclusion *)
Lemma c03_inputs_preserved n nq c outs : xonly nq c = true -> c03_holds n nq c outs ->
  forall x, inr n x -> forall j, j < N.of_nat n -> N.testbit (actf nq c x) j = N.testbit x j.
Proof.
  intros Hx H3 x Hxx j Hj. destruct (H3 x Hxx) as (f & Hf & Hin & _).
  rewrite <- (N2Nat.id j), <- (fsim_basis_actf n nq c x f Hx Hxx Hf). apply Hin. lia.
Qed.

Section Simon.
  Variables (n nq : nat) (c : circuit).
  Hypothesis Hn : (n <= nq)%nat.
  Hypothesis Hx : xonly nq c = true.
  (* the black box maps |x>|0> to |x>|F x>: it preserves the input register ... *)
  Hypothesis Hin : forall x, inr n x -> forall j, j < N.of_nat n -> N.testbit (actf nq c x) j = N.testbit x j.
  (* ... and F x is whatever it leaves on the other qubits *)
  Definition simonF (x : N) : N := N.shiftr (actf nq c x) (N.of_nat n).
  (* the part of an index above the input register *)
  Definition hi (i : N) : N := N.shiftr i (N.of_nat n).

  Lemma image_test i : highz n (actr nq c i) = N.eqb (actf nq c (lowpart n i)) i.
  Proof using Hin.
    apply eq_true_iff_eq. rewrite N.eqb_eq, highz_inr. split.
    - intros H. set (j := actr nq c i) in *.
      assert (Hj : actf nq c j = i) by apply actf_actr.
      assert (E : lowpart n i = j).
      { apply N.bits_inj. intros m. rewrite lowpart_bits. destruct (N.ltb_spec m (N.of_nat n)) as [Hm|Hm]; cbn [andb].
        - rewrite <- Hj. now apply Hin.
        - symmetry. now apply (inr_high n j). }
      now rewrite E.
    - intros H. rewrite <- H, actr_actf. apply lowpart_inr.
  Qed.

  Lemma hi_eq a b : hi a = hi b <-> (forall j, N.of_nat n <= j -> N.testbit a j = N.testbit b j).
  Proof using.
    unfold hi. split.
    - intros H j Hj. rewrite <- (N.sub_add _ _ Hj), <- !N.shiftr_spec', H; [reflexivity|apply N.le_0_l..].
    - intros H. apply N.bits_inj. intros m. rewrite !N.shiftr_spec' by apply N.le_0_l. apply H, N.le_add_l.
  Qed.

  Lemma eq_setlow_hi x i : inr n x -> N.eqb (actf nq c x) (setlow n i x) = N.eqb (simonF x) (hi i).
  Proof using Hin.
    intros Hxx. apply eq_true_iff_eq. rewrite !N.eqb_eq. change (simonF x) with (hi (actf nq c x)).
    rewrite hi_eq. split.
    - intros -> j Hj. now rewrite setlow_high.
    - intros H. apply N.bits_inj. intros m. rewrite setlow_bits.
      destruct (N.ltb_spec m (N.of_nat n)) as [Hm|Hm]; [now apply Hin|now apply H].
  Qed.

  (* amplitude of the basis state i after Simon's circuit (denominator sqrt(2)^(2n)) *)
  Definition simon_amp (i : N) : Z :=
    sumN n (fun x => sgn (dotb n x i) (if N.eqb (simonF x) (hi i) then 1%Z else 0%Z)).

  Theorem simon_amplitudes :
    exists psi, run_ref nq (simon_circuit n c) (delta0, 0%nat) = Some (psi, (2 * n)%nat) /\
      forall i, psi i = simon_amp i.
  Proof using Hn Hx Hin.
    unfold simon_circuit. cbn [app]. rewrite run_ref_bar, run_ref_app, run_ref_hlayer0 by lia.
    cbn [app]. rewrite run_ref_bar, run_ref_app.
    destruct (run_ref_classical nq c Hx (hlayer n delta0) n) as (psi2 & Hr & H2). rewrite Hr.
    cbn [app]. rewrite run_ref_bar, run_ref_hlayer by lia.
    eexists. split; [do 2 f_equal; lia|]. intros i. rewrite hlayer_WH. unfold WH, simon_amp.
    apply sumN_ext. intros x Hxx. f_equal.
    rewrite H2, hlayer_delta0, image_test, lowpart_setlow by exact Hxx. now rewrite eq_setlow_hi.
  Qed.

  Variable s : N.
  Hypothesis Hs : inr n s.

  (* F has period s  =>  every outcome of non-zero amplitude is orthogonal to s *)
  Theorem simon_orthogonal : (forall x, inr n x -> simonF (N.lxor x s) = simonF x) ->
    forall i, simon_amp i <> 0%Z -> dotb n s i = false.
  Proof using Hs.
    intros Hper i Hnz. destruct (dotb n s i) eqn:E; [|reflexivity]. exfalso. apply Hnz.
    unfold simon_amp. set (g := fun x => sgn (dotb n x i) (if N.eqb (simonF x) (hi i) then 1%Z else 0%Z)).
    pose proof (sumN_lxor n s g Hs) as Hre.
    rewrite (sumN_ext n (fun x => g (N.lxor x s)) (fun x => (- g x)%Z)) in Hre.
    - rewrite sumN_opp in Hre. fold g. clear -Hre. lia.
    - intros x Hxx. unfold g. rewrite Hper by exact Hxx. rewrite dotb_lxor_l, E.
      destruct (dotb n x i), (N.eqb (simonF x) (hi i)); reflexivity.
  Qed.

  (* F two-to-one with period s (one-to-one if s = 0)  =>  for outcomes orthogonal to s the
     squared amplitude of a basis state depends only on its non-search part: all y with
     y.s = 0 are equally likely (equal term by term over the rest of the register) *)
  Theorem simon_uniform :
    (forall x x', inr n x -> inr n x' -> (simonF x = simonF x' <-> x' = x \/ x' = N.lxor x s)) ->
    forall i i', dotb n s i = false -> dotb n s i' = false -> hi i = hi i' ->
      (simon_amp i * simon_amp i = simon_amp i' * simon_amp i')%Z.
  Proof using Hs.
    intros H21 i i' Hi Hi' Hh. unfold simon_amp. rewrite <- Hh.
    set (amp := fun j => sumN n (fun x => sgn (dotb n x j) (if N.eqb (simonF x) (hi i) then 1%Z else 0%Z))).
    change (amp i * amp i = amp i' * amp i')%Z.
    destruct (bsearch n (fun x => N.eqb (simonF x) (hi i))) as [Hno|(x0 & Hx0 & Hf0)].
    - (* hi i is not a value of F *)
      assert (Z : forall j, amp j = 0%Z)
        by (intros j; unfold amp; rewrite (sumN_ext n _ (fun _ => 0%Z)); [apply sumN_zero|intros x Hxx; rewrite (Hno x Hxx); apply sgn_0]).
      now rewrite !Z.
    - (* hi i = F x0 = F (x0 xor s) and nowhere else *)
      apply N.eqb_eq in Hf0. set (x1 := N.lxor x0 s).
      assert (Hx1 : inr n x1) by now apply inr_lxor.
      assert (Hsel : forall x, inr n x -> N.eqb (simonF x) (hi i) = N.eqb x x0 || N.eqb x x1).
      { intros x Hxx. apply eq_true_iff_eq. rewrite orb_true_iff, !N.eqb_eq, <- Hf0.
        split; [intros E; now apply (H21 x0 x)|intros E; symmetry; now apply (H21 x0 x)]. }
      assert (Hterm : forall j x, inr n x ->
                sgn (dotb n x j) (if N.eqb (simonF x) (hi i) then 1%Z else 0%Z)
                = if N.eqb x x0 || N.eqb x x1 then sgn (dotb n x j) 1%Z else 0%Z).
      { intros j x Hxx. rewrite (Hsel x Hxx). destruct (_ || _); [reflexivity|apply sgn_0]. }
      destruct (N.eq_dec x0 x1) as [E|Hne].
      + (* s = 0, F is one-to-one: the amplitude is one sign *)
        assert (T : forall j, amp j = sgn (dotb n x0 j) 1%Z).
        { intros j. unfold amp. rewrite (sumN_ext n _ _ (Hterm j)), <- E.
          rewrite (sumN_ext n _ (fun x => if N.eqb x x0 then sgn (dotb n x j) 1%Z else 0%Z))
            by (intros x _; now rewrite orb_diag).
          now rewrite sumN_single. }
        rewrite !T. destruct (dotb n x0 i), (dotb n x0 i'); reflexivity.
      + (* two preimages: twice a sign, the same for both *)
        assert (T : forall j, dotb n s j = false -> amp j = (2 * sgn (dotb n x0 j) 1)%Z).
        { intros j Hj. unfold amp. rewrite (sumN_ext n _ _ (Hterm j)), sumN_two by assumption.
          unfold x1. rewrite dotb_lxor_l, Hj, xorb_false_r. clear. lia. }
        rewrite (T i Hi), (T i' Hi'). destruct (dotb n x0 i), (dotb n x0 i'); reflexivity.
  Qed.
End Simon.

(* The abstract Grover iteration on the canonical layout.
   Canonical register: search bits 0..n-1, phase qubit at n, `_ret` at n+1.
   These state transformers mention only n and the predicate f. *)
Fixpoint hx_l (m : nat) (psi : N -> Z) : N -> Z :=   (* H q ; X q  for q = 0 .. m-1 *)
  match m with O => psi | S m' => refX [] (N.of_nat m') (refH (N.of_nat m') (hx_l m' psi)) end.
Fixpoint xh_l (m : nat) (psi : N -> Z) : N -> Z :=   (* X q ; H q  for q = 0 .. m-1 *)
  match m with O => psi | S m' => refH (N.of_nat m') (refX [] (N.of_nat m') (xh_l m' psi)) end.
(* the diffuser exactly as coded, with the phase qubit at index p *)
Definition diff_l (n : nat) (p : N) (psi : N -> Z) : N -> Z :=
  refH p (refX [] p (xh_l n (refZ (nN (seq 0 n) ++ [p]) (refX [] p (refH p (hx_l n psi)))))).
(* (x, p, r) |-> (x, p, r xor f x) on the canonical layout *)
Definition abs_or (n : nat) (f : N -> bool) (alpha : N -> Z) : N -> Z :=
  fun a => alpha (if f (lowpart n a) then flipq (N.of_nat (S n)) a else a).
Definition gstep (n : nat) (f : N -> bool) (alpha : N -> Z) : N -> Z :=
  diff_l n (N.of_nat n) (refZ [N.of_nat (S n); N.of_nat n] (abs_or n f alpha)).
Fixpoint giter (k : nat) (n : nat) (f : N -> bool) (alpha : N -> Z) : N -> Z :=
  match k with O => alpha | S k' => giter k' n f (gstep n f alpha) end.
(* the abstract Grover state after the whole circuit (repeat(iters): at least one copy) *)
Definition gabs (n : nat) (f : N -> bool) (iters : nat) : N -> Z :=
  giter (S (iters - 1)) n f (refH (N.of_nat n) (hlayer n delta0)).

(* The diffuser as coded is a reflection (canonical layout).
   hx_l / xh_l apply H_q X_q (resp. X_q H_q) qubit after qubit; gates on different
   qubits commute, so the block is  H-layer ; X-layer ; MCZ ; X-layer ; H-layer, and
   X-layer ; MCZ ; X-layer is the sign flip Z0 of WH.v *)
Definition xall (m : nat) (phi : N -> Z) : N -> Z := fun i => phi (N.lxor i (N.ones (N.of_nat m))).

Lemma hlayer_lxor k m : (forall a, a < N.of_nat k -> N.testbit m a = false) -> forall chi j,
  hlayer k (fun t => chi (N.lxor t m)) j = hlayer k chi (N.lxor j m).
Proof.
  intros Hm. induction k as [|k IH]; intros chi j; cbn [hlayer]; [reflexivity|].
  rewrite (refH_ext (N.of_nat k) _ (fun t => hlayer k chi (N.lxor t m)))
    by (intros t; apply IH; intros a Ha; apply Hm; lia).
  apply refH_lxor, Hm. lia.
Qed.

Lemma flipq_xall_idx m i : N.lxor (flipq (N.of_nat m) i) (N.ones (N.of_nat m)) = N.lxor i (N.ones (N.of_nat (S m))).
Proof.
  apply N.bits_inj. intros j. rewrite !N.lxor_spec, flipq_bits, !ones_bits, xorb_assoc. f_equal.
  destruct (N.eqb_spec (N.of_nat m) j), (N.ltb_spec j (N.of_nat m)), (N.ltb_spec j (N.of_nat (S m))); try reflexivity; lia.
Qed.

Lemma hx_xall m : forall psi i, hx_l m psi i = xall m (hlayer m psi) i.
Proof.
  induction m as [|m IH]; intros psi i.
  - cbn [hx_l hlayer]. unfold xall. now rewrite N.lxor_0_r.
  - cbn [hx_l hlayer]. rewrite refX0.
    rewrite (refH_ext (N.of_nat m) _ (xall m (hlayer m psi))) by (intros j; apply IH).
    unfold xall. rewrite refH_lxor by (rewrite ones_bits; apply N.ltb_irrefl). now rewrite flipq_xall_idx.
Qed.

Lemma xh_xall m : forall phi i, xh_l m phi i = hlayer m (xall m phi) i.
Proof.
  induction m as [|m IH]; intros phi i.
  - cbn [xh_l hlayer]. unfold xall. now rewrite N.lxor_0_r.
  - cbn [xh_l hlayer]. apply refH_ext. intros j. rewrite refX0, IH. unfold flipq.
    rewrite <- hlayer_lxor by (intros a Ha; rewrite bitm_bits; apply N.eqb_neq; lia).
    apply hlayer_ext. intros t. unfold xall. fold (flipq (N.of_nat m) t). now rewrite flipq_xall_idx.
Qed.

Lemma ctl_xall_lowz m : forall k i, (m <= k)%nat ->
  ctl (nN (seq 0 m)) (N.lxor i (N.ones (N.of_nat k))) = lowz m i.
Proof.
  unfold ctl, nN. induction m as [|m IH]; intros k i Hk; [reflexivity|].
  rewrite seq_S, map_app, forallb_app. cbn [map forallb Nat.add lowz]. rewrite IH by lia.
  rewrite N.lxor_spec, ones_bits. destruct (N.ltb_spec (N.of_nat m) (N.of_nat k)); [|lia].
  rewrite andb_true_r, andb_comm. now destruct (N.testbit i (N.of_nat m)).
Qed.

Lemma xall_refZ_xall m phi i : xall m (refZ (nN (seq 0 m)) (xall m phi)) i = Z0 m phi i.
Proof.
  unfold xall, refZ, Z0. rewrite ctl_xall_lowz by lia.
  now rewrite N.lxor_assoc, N.lxor_nilpotent, N.lxor_0_r.
Qed.

(* the diffuser, gate by gate as coded, on the canonical layout (phase qubit at n):
   2^(n+1) * identity - 2 * (sum over the search register and the phase qubit).
   Dividing by the 2^(n+1) of its 2(n+1) Hadamards: psi - 2 * mean(psi) for every
   fixed value of `_ret`, i.e. the inversion about the mean up to a global sign *)
Theorem grover_diffuser_is_reflection n psi i :
  diff_l n (N.of_nat n) psi i =
  (pow2z (S n) * psi i - 2 * sumN (S n) (fun x => psi (setlow (S n) i x)))%Z.
Proof.
  assert (E : diff_l n (N.of_nat n) psi i = xh_l (S n) (refZ (nN (seq 0 (S n))) (hx_l (S n) psi)) i).
  { unfold diff_l. cbn [xh_l hx_l]. rewrite seq_S. unfold nN. rewrite map_app. reflexivity. }
  rewrite E, xh_xall.
  rewrite (hlayer_ext (S n) _ (Z0 (S n) (hlayer (S n) psi))).
  - rewrite hlayer_WH. rewrite (WH_ext (S n) _ (Z0 (S n) (WH (S n) psi))).
    + apply diffuser_is_reflection.
    + intros j. unfold Z0. now rewrite hlayer_WH.
  - intros j. rewrite <- xall_refZ_xall. unfold xall, refZ. now rewrite hx_xall.
Qed.

(* amplitude as a function of (f x, `_ret`, phase) *)
Definition cls : Type := bool -> bool -> bool -> Z.
Definition c_or (c : cls) : cls := fun b r p => c b (xorb r b) p.
Definition c_z (c : cls) : cls := fun b r p => if r && p then (- c b r p)%Z else c b r p.
(* N2 = 2^(n+1), Nn = 2^n, M = number of solutions *)
Definition c_d (N2 Nn M : Z) (c : cls) : cls := fun b r p =>
  (N2 * c b r p - 2 * ((M * c true r false + (Nn - M) * c false r false) +
                       (M * c true r true + (Nn - M) * c false r true)))%Z.
Definition c_step (n : nat) (M : Z) (c : cls) : cls := c_d (pow2z (S n)) (pow2z n) M (c_z (c_or c)).
Fixpoint c_iter (k : nat) (n : nat) (M : Z) (c : cls) : cls :=
  match k with O => c | S k' => c_iter k' n M (c_step n M c) end.
Definition c_init : cls := fun b r p => if r then 0%Z else 1%Z.

(* c_step reads its argument five times at every point, so k steps on bare functions cost
   5^k evaluations; tab c is c read once at its eight points, and c_iter_tab tabulates
   after every step. Evaluation goes through c_iter_tab. *)
Definition tab (c : cls) : cls :=
  let a0 := c false false false in let a1 := c false false true in
  let a2 := c false true false in let a3 := c false true true in
  let a4 := c true false false in let a5 := c true false true in
  let a6 := c true true false in let a7 := c true true true in
  fun b r p => if b then (if r then (if p then a7 else a6) else (if p then a5 else a4))
               else (if r then (if p then a3 else a2) else (if p then a1 else a0)).
Fixpoint c_iter_tab (k : nat) (n : nat) (M : Z) (c : cls) : cls :=
  match k with O => c | S k' => c_iter_tab k' n M (tab (c_step n M c)) end.

Lemma tab_eq c b r p : tab c b r p = c b r p.
Proof. now destruct b, r, p. Qed.
Lemma c_iter_tab_eq k n M : forall c c', (forall b r p, c b r p = c' b r p) ->
  forall b r p, c_iter_tab k n M c b r p = c_iter k n M c' b r p.
Proof.
  induction k as [|k IH]; intros c c' H b r p; cbn [c_iter_tab c_iter]; [apply H|].
  apply IH. intros. rewrite tab_eq. unfold c_step, c_d, c_z, c_or. now rewrite !H.
Qed.

Definition class_state (n : nat) (f : N -> bool) (c : cls) : N -> Z :=
  fun a => if highz (S (S n)) a
           then c (f (lowpart n a)) (N.testbit a (N.of_nat (S n))) (N.testbit a (N.of_nat n))
           else 0%Z.

Lemma sum_class n (f : N -> bool) (a b : Z) :
  sumN n (fun x => if f x then a else b) = (fcount n f * a + (pow2z n - fcount n f) * b)%Z.
Proof.
  unfold fcount.
  rewrite (sumN_ext n _ (fun x => (b + (a - b) * (if f x then 1 else 0))%Z)) by (intros x _; destruct (f x); lia).
  rewrite sumN_add, sumN_scale, sumN_const. lia.
Qed.

Section Classes.
  Variables (n : nat) (f : N -> bool).
  Let M := fcount n f.
  Local Notation aP := (N.of_nat n).
  Local Notation aR := (N.of_nat (S n)).
  Local Notation CS := (class_state n f).

  Lemma cs_or alpha c : (forall a, alpha a = CS c a) -> forall a, abs_or n f alpha a = CS (c_or c) a.
  Proof using.
    intros H a. unfold abs_or. rewrite H. unfold class_state, c_or.
    destruct (f (lowpart n a)) eqn:E; [|now rewrite E, xorb_false_r].
    rewrite (highz_ext (S (S n)) (flipq aR a) a) by (intros j Hj; apply flipq_testbit_other; lia).
    rewrite (lowpart_ext n (flipq aR a) a) by (intros j Hj; apply flipq_testbit_other; lia).
    rewrite E, flipq_testbit, flipq_testbit_other by lia. now rewrite xorb_true_r.
  Qed.

  Lemma cs_z alpha c : (forall a, alpha a = CS c a) -> forall a, refZ [aR; aP] alpha a = CS (c_z c) a.
  Proof using.
    intros H a. unfold refZ. rewrite H. unfold class_state, c_z. cbn [ctl forallb]. rewrite andb_true_r.
    destruct (highz (S (S n)) a), (N.testbit a aR), (N.testbit a aP); reflexivity.
  Qed.

  (* the index with search bits x', phase bit b and the rest of a *)
  Lemma cs_setlow c a x' (b : bool) : inr n x' ->
    CS c (setlow (S n) a (if b then N.setbit x' aP else x')) =
    if highz (S (S n)) a then c (f x') (N.testbit a aR) b else 0%Z.
  Proof using.
    intros Hx. rewrite (setlow_S n a x' b Hx). set (a' := if b then N.setbit a aP else N.clearbit a aP).
    assert (Ha' : forall j, j <> aP -> N.testbit a' j = N.testbit a j)
      by (intros j Hj; unfold a'; destruct b; [apply N.setbit_neq|apply N.clearbit_neq]; congruence).
    assert (Hb : N.testbit a' aP = b) by (unfold a'; destruct b; [apply N.setbit_eq|apply N.clearbit_eq]).
    unfold class_state.
    rewrite (highz_ext (S (S n)) _ a) by (intros j Hj; rewrite setlow_high by lia; apply Ha'; lia).
    now rewrite (lowpart_setlow n a' x' Hx), !setlow_high, Hb, Ha' by lia.
  Qed.

  (* the sum of a class state over the search register, phase bit b *)
  Lemma cs_sum alpha c a (b : bool) : (forall a, alpha a = CS c a) ->
    sumN n (fun x => alpha (setlow (S n) a (if b then N.setbit x aP else x))) =
    if highz (S (S n)) a
    then (M * c true (N.testbit a aR) b + (pow2z n - M) * c false (N.testbit a aR) b)%Z else 0%Z.
  Proof using.
    intros H.
    rewrite (sumN_ext n _ (fun x => if f x then (if highz (S (S n)) a then c true (N.testbit a aR) b else 0%Z)
                                     else (if highz (S (S n)) a then c false (N.testbit a aR) b else 0%Z)))
      by (intros x Hx; rewrite H, (cs_setlow c a x b Hx); now destruct (f x)).
    rewrite sum_class. fold M. destruct (highz (S (S n)) a); lia.
  Qed.

  Lemma cs_d alpha c : (forall a, alpha a = CS c a) ->
    forall a, diff_l n aP alpha a = CS (c_d (pow2z (S n)) (pow2z n) M c) a.
  Proof using.
    intros H a. rewrite grover_diffuser_is_reflection, H. cbn [sumN].
    rewrite (cs_sum alpha c a false H), (cs_sum alpha c a true H).
    unfold class_state, c_d. destruct (highz (S (S n)) a); lia.
  Qed.

  Lemma cs_step alpha c : (forall a, alpha a = CS c a) -> forall a, gstep n f alpha a = CS (c_step n M c) a.
  Proof using. intros H. unfold gstep, c_step. apply cs_d, cs_z, cs_or, H. Qed.

  Lemma cs_iter k : forall alpha c, (forall a, alpha a = CS c a) ->
    forall a, giter k n f alpha a = CS (c_iter k n M c) a.
  Proof using.
    induction k as [|k IH]; intros alpha c H a; cbn [giter c_iter]; [apply H|].
    apply IH. now apply cs_step.
  Qed.

  Lemma cs_init a : refH aP (hlayer n delta0) a = CS c_init a.
  Proof using.
    rewrite (refH_uniform n n (le_n n) _ (hlayer_delta0 n)). unfold class_state, c_init.
    (* search register and phase qubit only = nothing from `_ret` on *)
    rewrite cleanb_highz, (highz_clean (S n) (S n) (le_n _)), cleanb_highz.
    destruct (highz (S (S n)) a), (N.testbit a aR); reflexivity.
  Qed.

  (* the abstract Grover state is a function of the class (f x, `_ret`, phase) only, and the
     8 class amplitudes follow the integer recurrence c_step in N = 2^n and M = #solutions *)
  Theorem grover_classes iters a :
    gabs n f iters a = CS (c_iter (S (iters - 1)) n M c_init) a.
  Proof using. unfold gabs. apply cs_iter. apply cs_init. Qed.
End Classes.

(* the abstract state depends on the predicate only through its values below 2^n *)
Lemma gabs_ext n f g iters a : (forall x, inr n x -> f x = g x) -> gabs n f iters a = gabs n g iters a.
Proof.
  intros Hf. rewrite !grover_classes. unfold class_state, fcount.
  rewrite (Hf _ (lowpart_inr n a)), (sumN_ext n _ (fun x => if g x then 1%Z else 0%Z)) by (intros x Hx; now rewrite Hf).
  reflexivity.
Qed.

Lemma run_ref_hx NQ m : (m <= NQ)%nat -> forall psi k,
  run_ref NQ (flat_map (fun i => [gH i; gX i]) (seq 0 m)) (psi, k) = Some (hx_l m psi, (k + m)%nat).
Proof.
  induction m as [|m IH]; intros Hm psi k.
  - cbn. now rewrite Nat.add_0_r.
  - rewrite seq_S, flat_map_app, run_ref_app, IH by lia. cbn [flat_map app Nat.add].
    rewrite run_ref_H, run_ref_X by lia. cbn [run_ref hx_l]. now rewrite Nat.add_succ_r.
Qed.
Lemma run_ref_xh NQ m : (m <= NQ)%nat -> forall psi k,
  run_ref NQ (flat_map (fun i => [gX i; gH i]) (seq 0 m)) (psi, k) = Some (xh_l m psi, (k + m)%nat).
Proof.
  induction m as [|m IH]; intros Hm psi k.
  - cbn. now rewrite Nat.add_0_r.
  - rewrite seq_S, flat_map_app, run_ref_app, IH by lia. cbn [flat_map app Nat.add].
    rewrite run_ref_X, run_ref_H by lia. cbn [run_ref xh_l]. now rewrite Nat.add_succ_r.
Qed.

(* the diffuser's gate list *)
Lemma run_ref_diffuser NQ n p : (n <= p < NQ)%nat -> forall psi k,
  run_ref NQ (grover_diffuser n p) (psi, k) = Some (diff_l n (N.of_nat p) psi, (k + (2 * n + 2))%nat).
Proof.
  intros Hp psi k. unfold grover_diffuser.
  rewrite run_ref_app, run_ref_hx by lia. cbn [app].
  rewrite run_ref_H, run_ref_X by lia.
  rewrite run_ref_MCZ;
    [|intros q Hq; apply in_app_or in Hq as [Hq|[<-|[]]]; [apply in_seq in Hq|]; lia
     |apply NoDup_snoc; [apply seq_NoDup|rewrite in_seq; lia]].
  rewrite run_ref_app, run_ref_xh by lia. cbn [app].
  rewrite run_ref_X, run_ref_H by lia. cbn [run_ref]. unfold diff_l, nN. rewrite map_app. cbn [map].
  do 2 f_equal. lia.
Qed.

(* Simulation: the concrete register (oracle scratch qubits, `_ret` at out, phase qubit at nq)
   against the canonical one.
   enc: the basis index holding x on the search register, r on `_ret`, p on the phase qubit *)
Definition enc (out nq : nat) (x : N) (r p : bool) : N :=
  N.lor x (N.lor (if r then bitm (N.of_nat out) else 0) (if p then bitm (N.of_nat nq) else 0)).

Lemma enc_bits out nq x r p j : N.testbit (enc out nq x r p) j =
  N.testbit x j || (r && N.eqb (N.of_nat out) j) || (p && N.eqb (N.of_nat nq) j).
Proof.
  unfold enc. rewrite !N.lor_spec, orb_assoc. f_equal; [f_equal|].
  - destruct r; [apply bitm_bits|apply N.bits_0].
  - destruct p; [apply bitm_bits|apply N.bits_0].
Qed.

Lemma enc_eq0 out nq x r p : N.eqb (enc out nq x r p) 0 = N.eqb x 0 && negb (r || p).
Proof.
  assert (Hb : forall q, bitm q <> 0) by (intros q; rewrite bitm_pow; now apply N.pow_nonzero).
  apply eq_true_iff_eq. unfold enc. rewrite andb_true_iff, negb_true_iff, !N.eqb_eq, !N.lor_eq_0_iff.
  split.
  - intros (Hx0 & H1 & H2). split; [exact Hx0|].
    destruct r; [now elim (Hb _ H1)|]. destruct p; [now elim (Hb _ H2)|reflexivity].
  - intros (Hx0 & Hrp). apply orb_false_iff in Hrp as [-> ->]. now repeat split.
Qed.

(* the fields of an encoded index: a bit of the search register, `_ret`, the phase bit;
   qub is the qubit that holds a field in the layout with `_ret` at o and the phase qubit at p *)
Inductive fld := f_search (q : N) | f_ret | f_phase.
Definition qub (o p : nat) (d : fld) : N :=
  match d with f_search q => q | f_ret => N.of_nat o | f_phase => N.of_nat p end.
Definition fin (n : nat) (d : fld) : Prop := match d with f_search q => q < N.of_nat n | _ => True end.
Definition fget (d : fld) (x : N) (r b : bool) : bool :=
  match d with f_search q => N.testbit x q | f_ret => r | f_phase => b end.

(* the phase qubit is the `_ret` qubit of the layout with the two exchanged *)
Lemma enc_swap o p x r b : enc o p x r b = enc p o x b r.
Proof. unfold enc. f_equal. apply N.lor_comm. Qed.

(* for any layout with `_ret` and the phase qubit beyond the search register: the qubit of a
   field reads that field, and flipping it gives the encoding of another triple, the same
   for every layout *)
Section Enc.
  Variables (n : nat) (x : N) (r b : bool).
  Hypothesis Hx : inr n x.

  Section Layout.
  Variables (o p : nat).
  Hypothesis L : (n <= o /\ n <= p /\ o <> p)%nat.

  Lemma enc_test d : fin n d -> N.testbit (enc o p x r b) (qub o p d) = fget d x r b.
  Proof using Hx L.
    intros Hd. rewrite enc_bits. destruct d as [q| |]; cbn [qub fget]; cbn [fin] in Hd.
    - rewrite (proj2 (N.eqb_neq (N.of_nat o) q)), (proj2 (N.eqb_neq (N.of_nat p) q)) by lia.
      now rewrite !andb_false_r, !orb_false_r.
    - rewrite (inr_high n x), N.eqb_refl, (proj2 (N.eqb_neq (N.of_nat p) (N.of_nat o))) by (assumption || lia).
      now rewrite andb_true_r, andb_false_r, orb_false_r.
    - rewrite (inr_high n x), N.eqb_refl, (proj2 (N.eqb_neq (N.of_nat o) (N.of_nat p))) by (assumption || lia).
      now rewrite andb_true_r, andb_false_r.
  Qed.

  Lemma enc_ret : N.testbit (enc o p x r b) (N.of_nat o) = r.
  Proof using Hx L. now apply (enc_test f_ret). Qed.
  Lemma enc_phase : N.testbit (enc o p x r b) (N.of_nat p) = b.
  Proof using Hx L. now apply (enc_test f_phase). Qed.
  Lemma enc_other j : N.of_nat n <= j -> j <> N.of_nat o -> j <> N.of_nat p -> N.testbit (enc o p x r b) j = false.
  Proof using Hx.
    intros Hj H1 H2.
    rewrite enc_bits, (inr_high n x), (proj2 (N.eqb_neq (N.of_nat o) j)), (proj2 (N.eqb_neq (N.of_nat p) j)) by (assumption || congruence).
    now rewrite !andb_false_r.
  Qed.
  Lemma enc_low : lowpart n (enc o p x r b) = x.
  Proof using Hx L.
    rewrite <- (lowpart_id n x Hx) at 2. apply lowpart_ext. intros j Hj. now apply (enc_test (f_search j)).
  Qed.
  End Layout.

  Lemma enc_flip d : fin n d -> exists x' r' b', inr n x' /\
    forall o p, (n <= o /\ n <= p /\ o <> p)%nat -> flipq (qub o p d) (enc o p x r b) = enc o p x' r' b'.
  Proof using Hx.
    assert (Hr : forall r b o p, (n <= o /\ n <= p /\ o <> p)%nat -> flipq (N.of_nat o) (enc o p x r b) = enc o p x (negb r) b).
    { intros r0 b0 o p L. apply N.bits_inj. intros j. rewrite flipq_bits, !enc_bits.
      destruct (N.eqb_spec (N.of_nat o) j) as [<-|_]; [|now rewrite xorb_false_r, !andb_false_r].
      rewrite (inr_high n x), (proj2 (N.eqb_neq (N.of_nat p) (N.of_nat o))) by (assumption || lia).
      rewrite !andb_true_r, !andb_false_r, !orb_false_r. apply xorb_true_r. }
    intros Hd. destruct d as [q| |]; cbn [qub]; cbn [fin] in Hd.
    - exists (flipq q x), r, b. split; [now apply inr_flipq|]. intros o p L.
      apply N.bits_inj. intros j. rewrite flipq_bits, !enc_bits, flipq_bits.
      destruct (N.eqb_spec q j) as [<-|_]; [|now rewrite !xorb_false_r].
      rewrite (proj2 (N.eqb_neq (N.of_nat o) q)), (proj2 (N.eqb_neq (N.of_nat p) q)) by lia.
      now rewrite !andb_false_r, !orb_false_r.
    - exists x, (negb r), b. split; [exact Hx|]. apply Hr.
    - exists x, r, (negb b). split; [exact Hx|]. intros o p L.
      rewrite (enc_swap o p), (enc_swap o p x r). apply Hr. lia.
  Qed.
End Enc.

(* number of H gates of the Grover circuit = exponent of the denominator: n in the first layer,
   1 on the phase qubit, 2n + 2 in each round of oracle ; diffuser *)
Definition grover_k (n iters : nat) : nat := (n + 1 + S (iters - 1) * (2 * n + 2))%nat.

Section GroverSim.
  Variables (n nq : nat) (c : circuit) (ds : defs) (ret out : nat).
  Hypothesis Hout : (n <= out < nq)%nat.
  Hypothesis Hx : xonly nq c = true.
  Hypothesis H06 : c06_holds n nq c ds ret out.
  Local Notation pN := (N.of_nat nq).
  Local Notation oN := (N.of_nat out).
  Local Notation aP := (N.of_nat n).
  Local Notation aR := (N.of_nat (S n)).
  Let f := ofun ds ret.

  Definition mask3 : N := N.lor (N.ones aP) (N.lor (bitm oN) (bitm pN)).
  (* only search register, `_ret` and phase qubit may be non-zero *)
  Definition clean3 (i : N) : bool := N.eqb (N.ldiff i mask3) 0.

  (* the concrete state psi is the abstract state alpha read through the two encodings,
     and zero wherever a scratch qubit is non-zero *)
  Definition Rel (alpha psi : N -> Z) : Prop :=
    (forall x r b, inr n x -> psi (enc out nq x r b) = alpha (enc (S n) n x r b)) /\
    (forall i, clean3 i = false -> psi i = 0%Z).

  Lemma mask3_bits j : N.testbit mask3 j = (j <? aP) || (N.eqb oN j) || (N.eqb pN j).
  Proof using. unfold mask3. now rewrite !N.lor_spec, ones_bits, !bitm_bits, orb_assoc. Qed.

  Lemma clean3_flipq d : fin n d -> forall i, clean3 (flipq (qub out nq d) i) = clean3 i.
  Proof using.
    intros H i. apply within_flipq. rewrite mask3_bits.
    destruct d; cbn [qub]; [apply N.ltb_lt in H; now rewrite H|now rewrite N.eqb_refl, orb_true_r..].
  Qed.

  (* a gate on the qubit of a field in the concrete layout against the same gate on the
     qubit of that field in the canonical one *)
  Lemma Rel_H d : fin n d -> forall alpha psi, Rel alpha psi -> Rel (refH (qub (S n) n d) alpha) (refH (qub out nq d) psi).
  Proof using Hout.
    intros Hd alpha psi [H1 H0]. split.
    - intros x r b Hxx. destruct (enc_flip n x r b Hxx d Hd) as (x' & r' & b' & Hx' & E).
      now rewrite !refH_flipq, !(enc_test n), !E, !H1 by (assumption || lia).
    - intros i Hc. rewrite refH_flipq, (H0 i), (H0 (flipq (qub out nq d) i)) by (rewrite ?clean3_flipq; assumption).
      now destruct (N.testbit i (qub out nq d)).
  Qed.
  Lemma Rel_X d : fin n d -> forall alpha psi, Rel alpha psi -> Rel (refX [] (qub (S n) n d) alpha) (refX [] (qub out nq d) psi).
  Proof using Hout.
    intros Hd alpha psi [H1 H0]. split.
    - intros x r b Hxx. destruct (enc_flip n x r b Hxx d Hd) as (x' & r' & b' & Hx' & E).
      now rewrite !refX0, !E, H1 by (assumption || lia).
    - intros i Hc. rewrite refX0. apply H0. now rewrite clean3_flipq.
  Qed.
  Lemma Rel_Z fs alpha psi : Forall (fin n) fs -> Rel alpha psi ->
    Rel (refZ (map (qub (S n) n) fs) alpha) (refZ (map (qub out nq) fs) psi).
  Proof using Hout.
    intros Hd [H1 H0]. unfold refZ. split.
    - intros x r b Hxx. rewrite H1 by exact Hxx.
      replace (ctl (map (qub (S n) n) fs) (enc (S n) n x r b)) with (ctl (map (qub out nq) fs) (enc out nq x r b)); [reflexivity|].
      unfold ctl. induction Hd as [|d fs Hd _ IH]; cbn [map forallb]; [reflexivity|].
      now rewrite IH, !(enc_test n) by (assumption || lia).
    - intros i Hc. rewrite (H0 i Hc). now destruct (ctl (map (qub out nq) fs) i).
  Qed.

  Lemma Rel_init : Rel delta0 delta0.
  Proof using.
    split.
    - intros x r b _. unfold delta0. now rewrite !enc_eq0.
    - intros i Hc. unfold delta0. destruct (N.eqb_spec i 0) as [->|_]; [discriminate Hc|reflexivity].
  Qed.

  Lemma Rel_hlayer m : (m <= n)%nat -> forall alpha psi, Rel alpha psi -> Rel (hlayer m alpha) (hlayer m psi).
  Proof using Hout.
    induction m as [|m IH]; intros Hm alpha psi H; cbn [hlayer]; [exact H|].
    apply (Rel_H (f_search (N.of_nat m))); [cbn; lia|apply IH; [lia|exact H]].
  Qed.
  Lemma Rel_hx m : (m <= n)%nat -> forall alpha psi, Rel alpha psi -> Rel (hx_l m alpha) (hx_l m psi).
  Proof using Hout.
    induction m as [|m IH]; intros Hm alpha psi H; cbn [hx_l]; [exact H|].
    apply (Rel_X (f_search (N.of_nat m))); [cbn; lia|]. apply (Rel_H (f_search (N.of_nat m))); [cbn; lia|apply IH; [lia|exact H]].
  Qed.
  Lemma Rel_xh m : (m <= n)%nat -> forall alpha psi, Rel alpha psi -> Rel (xh_l m alpha) (xh_l m psi).
  Proof using Hout.
    induction m as [|m IH]; intros Hm alpha psi H; cbn [xh_l]; [exact H|].
    apply (Rel_H (f_search (N.of_nat m))); [cbn; lia|]. apply (Rel_X (f_search (N.of_nat m))); [cbn; lia|apply IH; [lia|exact H]].
  Qed.

  Lemma Rel_diff alpha psi : Rel alpha psi -> Rel (diff_l n aP alpha) (diff_l n pN psi).
  Proof using Hout.
    intros H. unfold diff_l.
    set (fs := map f_search (nN (seq 0 n)) ++ [f_phase]).
    assert (E : forall o p, nN (seq 0 n) ++ [N.of_nat p] = map (qub o p) fs)
      by (intros o p; unfold fs; now rewrite map_app, map_map, map_id).
    rewrite (E (S n) n), (E out nq).
    apply (Rel_H f_phase I), (Rel_X f_phase I), Rel_xh; [lia|].
    apply Rel_Z.
    { apply Forall_app. split; [|repeat constructor]. apply Forall_map, Forall_forall. intros q Hq.
      apply in_map_iff in Hq as (m & <- & Hm). apply in_seq in Hm. cbn. lia. }
    apply (Rel_X f_phase I), (Rel_H f_phase I). now apply Rel_hx.
  Qed.

  Lemma clean3_spec i : clean3 i = true <-> (forall j, N.testbit i j = true -> N.testbit mask3 j = true).
  Proof using. apply within_spec. Qed.

  Lemma clean3_cleanq i : clean3 i = true -> cleanq n nq out i = true.
  Proof using Hout.
    intros H. unfold cleanq. apply cleanb_spec. intros j Hj. rewrite lpq_bits in Hj.
    apply andb_true_iff in Hj as [H1 H2]. apply N.ltb_lt in H1.
    pose proof (proj1 (clean3_spec i) H j H2) as Hm. rewrite mask3_bits in Hm.
    apply orb_true_iff in Hm as [Hm|Hm]; [apply orb_true_iff in Hm as [Hm|Hm]|].
    - left. now apply N.ltb_lt.
    - right. apply N.eqb_eq in Hm. now symmetry.
    - apply N.eqb_eq in Hm. lia.
  Qed.

  Lemma enc_clean3 x r b : inr n x -> clean3 (enc out nq x r b) = true.
  Proof using.
    intros Hxx. apply clean3_spec. intros j. rewrite enc_bits, mask3_bits. intros Hj.
    apply orb_true_iff in Hj as [Hj|Hj]; [apply orb_true_iff in Hj as [Hj|Hj]|].
    - replace (j <? aP) with true; [reflexivity|]. symmetry. apply N.ltb_lt.
      destruct (N.lt_ge_cases j aP) as [H|H]; [exact H|]. rewrite (inr_high n x j Hxx H) in Hj. discriminate.
    - apply andb_true_iff in Hj as [_ Hj]. now rewrite Hj, orb_true_r.
    - apply andb_true_iff in Hj as [_ Hj]. now rewrite Hj, orb_true_r.
  Qed.

  Lemma omap_clean3 i : clean3 (omap n ds ret out i) = clean3 i.
  Proof using. unfold omap. destruct (ofun ds ret (lowpart n i)); [apply (clean3_flipq f_ret I)|reflexivity]. Qed.

  (* the oracle key lemma on the class clean3 *)
  Lemma Rel_oracle alpha psi k : Rel alpha psi ->
    exists psi', run_ref (S nq) c (psi, k) = Some (psi', k) /\ Rel (abs_or n f alpha) psi'.
  Proof using H06 Hout Hx.
    intros [H1 H0].
    destruct (oracle_on_class n nq c ds ret out Hout Hx H06 clean3 (S nq) psi k
                (Nat.le_succ_diag_r nq) clean3_cleanq omap_clean3) as (psi' & Hr & Ha & Hb).
    exists psi'. split; [exact Hr|]. split.
    - intros x r b Hxx. rewrite Ha by now apply enc_clean3.
      unfold omap, abs_or. rewrite !(enc_low n) by (assumption || lia). fold f.
      destruct (f x); [|now apply H1]. destruct (enc_flip n x r b Hxx f_ret I) as (x' & r' & b' & Hx' & E). cbn [qub] in E.
      now rewrite (E out nq), (E (S n) n), H1 by (assumption || lia).
    - intros i Hc. destruct (Hb i Hc) as (j & Hj & ->). now apply H0.
  Qed.

  (* one Grover iteration: oracle ; controlled Z from `_ret` onto the phase qubit ; diffuser *)
  Lemma Rel_step alpha psi k : Rel alpha psi ->
    exists psi', run_ref (S nq) (grover_oracle c out nq ++ grover_diffuser n nq) (psi, k)
                 = Some (psi', (k + (2 * n + 2))%nat) /\ Rel (gstep n f alpha) psi'.
  Proof using H06 Hout Hx.
    intros H. unfold grover_oracle. rewrite <- app_assoc, run_ref_app.
    destruct (Rel_oracle alpha psi k H) as (psi1 & Hr & H1). rewrite Hr. cbn [app].
    rewrite run_ref_MCZ; [|intros q [<-|[<-|[]]]; lia|repeat constructor; [intros [E|[]]; lia|intros []]].
    rewrite run_ref_diffuser by lia.
    eexists. split; [reflexivity|]. unfold gstep. apply Rel_diff.
    apply (Rel_Z [f_ret; f_phase]); [repeat constructor|exact H1].
  Qed.

  Lemma Rel_copies m : forall alpha psi k, Rel alpha psi ->
    exists psi', run_ref (S nq) (copies (grover_oracle c out nq ++ grover_diffuser n nq) m) (psi, k)
                 = Some (psi', (k + m * (2 * n + 2))%nat) /\ Rel (giter m n f alpha) psi'.
  Proof using H06 Hout Hx.
    induction m as [|m IH]; intros alpha psi k H; cbn [copies giter].
    - exists psi. split; [cbn; do 2 f_equal; lia|exact H].
    - rewrite run_ref_app. destruct (Rel_step alpha psi k H) as (psi1 & Hr & H1). rewrite Hr.
      destruct (IH _ psi1 (k + (2 * n + 2))%nat H1) as (psi2 & Hr2 & H2). exists psi2. split; [|exact H2].
      rewrite Hr2. do 2 f_equal. lia.
  Qed.

  (* the whole Grover circuit factors through the abstract oracle map: on the encoded basis
     states its final state is the abstract state gabs (a function of n, f and the iteration
     count only), and it is zero wherever a scratch qubit is non-zero *)
  Theorem grover_amplitudes iters :
    exists psi, run_ref (S nq) (grover_circuit n nq out c iters) (delta0, 0%nat)
                = Some (psi, grover_k n iters) /\
      (forall x r p, inr n x -> psi (enc out nq x r p) = gabs n (ofun ds ret) iters (enc (S n) n x r p)) /\
      (forall i, clean3 i = false -> psi i = 0%Z).
  Proof using H06 Hout Hx.
    unfold grover_circuit. rewrite run_ref_app, run_ref_hlayer0 by lia. cbn [app]. rewrite run_ref_H by lia.
    assert (H0 : Rel (refH aP (hlayer n delta0)) (refH pN (hlayer n delta0))).
    { apply (Rel_H f_phase I). apply Rel_hlayer; [lia|apply Rel_init]. }
    unfold qc_repeat.
    change (?b ++ copies ?b (iters - 1)) with (copies b (S (iters - 1))).
    destruct (Rel_copies (S (iters - 1)) _ _ (S n) H0) as (psi & Hr & H). exists psi. split; [|exact H].
    rewrite Hr. unfold grover_k. do 2 f_equal. lia.
  Qed.
End GroverSim.

(* two oracle circuits that are clean xor-oracles for the same predicate (possibly with
   different scratch qubits and a different position of `_ret`) give the same amplitude on
   every (search register, `_ret`, phase) basis state and zero amplitude wherever a scratch
   qubit is non-zero; the denominators (number of H gates) agree as well *)
Theorem grover_depends_only_on_f n iters
        nq1 c1 ds1 ret1 out1 nq2 c2 ds2 ret2 out2 :
  (n <= out1 < nq1)%nat -> xonly nq1 c1 = true -> c06_holds n nq1 c1 ds1 ret1 out1 ->
  (n <= out2 < nq2)%nat -> xonly nq2 c2 = true -> c06_holds n nq2 c2 ds2 ret2 out2 ->
  (forall x, inr n x -> ofun ds1 ret1 x = ofun ds2 ret2 x) ->
  exists psi1 psi2 k,
    run_ref (S nq1) (grover_circuit n nq1 out1 c1 iters) (delta0, 0%nat) = Some (psi1, k) /\
    run_ref (S nq2) (grover_circuit n nq2 out2 c2 iters) (delta0, 0%nat) = Some (psi2, k) /\
    (forall x r p, inr n x -> psi1 (enc out1 nq1 x r p) = psi2 (enc out2 nq2 x r p)) /\
    (forall i, clean3 n nq1 out1 i = false -> psi1 i = 0%Z) /\
    (forall i, clean3 n nq2 out2 i = false -> psi2 i = 0%Z).
Proof.
  intros Ho1 Hx1 H1 Ho2 Hx2 H2 Hf.
  destruct (grover_amplitudes n nq1 c1 ds1 ret1 out1 Ho1 Hx1 H1 iters) as (psi1 & Hr1 & Ha1 & Hz1).
  destruct (grover_amplitudes n nq2 c2 ds2 ret2 out2 Ho2 Hx2 H2 iters) as (psi2 & Hr2 & Ha2 & Hz2).
  exists psi1, psi2, (grover_k n iters). repeat split; try assumption.
  intros x r p Hxx. rewrite Ha1, Ha2 by exact Hxx. now apply gabs_ext.
Qed.

(* numerator of the probability of an event P, read off a duplicate-free list, is the
   sum over ALL basis states of the squared reference amplitude (stated here, not beside sqsum
   in Amp.v, because sumN is WH.v's) *)
Theorem sqsum_spec nq P : forall l, strictly_sorted l = true -> keys_below nq l = true ->
  sqsum P l = sumN nq (fun i => if P i then (amp_of l i * amp_of l i)%Z else 0%Z).
Proof.
  induction l as [|e r IH]; intros Hs Hk.
  - cbn [sqsum]. unfold amp_of. cbn [asum]. rewrite (sumN_ext nq _ (fun _ => 0%Z)), sumN_zero; [reflexivity|].
    intros i _. now destruct (P i).
  - cbn [sqsum]. cbn [keys_below forallb] in Hk. apply andb_true_iff in Hk as [Hk1 Hk2]. apply N.ltb_lt in Hk1.
    destruct (sorted_cons e r Hs) as [Hs' Hz]. specialize (Hz (fst e) (N.le_refl _)). rewrite (IH Hs' Hk2).
    rewrite (sumN_ext nq (fun i => if P i then (amp_of (e :: r) i * amp_of (e :: r) i)%Z else 0%Z)
      (fun i => ((if N.eqb i (fst e) then (if P i then snd e * snd e else 0) else 0) +
                 (if P i then amp_of r i * amp_of r i else 0))%Z)).
    + rewrite sumN_add, (sumN_single nq (fst e) (fun i => if P i then (snd e * snd e)%Z else 0%Z)) by exact Hk1. reflexivity.
    + intros i _. unfold amp_of at 1 2. cbn [asum]. fold (amp_of r i).
      destruct (N.eqb_spec i (fst e)) as [->|Hne].
      * rewrite Hz. destruct (P (fst e)); lia.
      * destruct (P i); lia.
Qed.

(* together with amp_run_spec: the marginal numerators the harness reads are sums of
   squared REFERENCE amplitudes of the real circuit *)
Corollary marginal_is_reference nq c l k psi mask y :
  run_amp nq c = Some (l, k) -> run_ref nq c (delta0, 0%nat) = Some (psi, k) ->
  strictly_sorted l = true -> keys_below nq l = true ->
  amp_of (marginal mask l) y = sumN nq (fun i => if N.eqb y (N.land i mask) then (psi i * psi i)%Z else 0%Z).
Proof.
  intros Ha Hr Hs Hk. rewrite marginal_spec, (sqsum_spec nq _ l Hs Hk).
  pose proof (amp_run_spec nq c) as H. rewrite Ha, Hr in H. destruct H as [_ H].
  apply sumN_ext. intros i _. now rewrite H.
Qed.

(* Simon's black box, from the C03 decision *)
Lemma simon_inputs_checked n nq c outs : xonly nq c = true -> c03_check n nq c outs = Some 0 ->
  forall x, inr n x -> forall j, j < N.of_nat n -> N.testbit (actf nq c x) j = N.testbit x j.
Proof. intros Hx H. apply (c03_inputs_preserved n nq c outs Hx). now apply c03_checked. Qed.

(* probability numerator of ONE search outcome of class b (sum over `_ret` and phase) *)
Definition c_prob (c : cls) (b : bool) : Z :=
  (c b false false * c b false false + c b false true * c b false true +
   c b true false * c b true false + c b true true * c b true true)%Z.

(* for n search qubits and m solutions, with the default iteration count:
   a solution is strictly more likely than a non-solution, and m solutions together
   have probability > 1/2 *)
Definition table_ok (n m : nat) : bool :=
  match grover_iters (2 ^ N.of_nat n) (N.of_nat m) with
  | Some it =>
      let c := c_iter (S (it - 1)) n (Z.of_nat m) c_init in
      Z.ltb (c_prob c false) (c_prob c true) &&
      Z.ltb (pow2z (grover_k n it)) (2 * Z.of_nat m * c_prob c true)
  | None => false
  end.
(* (n, m) with 2 <= n <= 6 and 1 <= m <= 2^n / 4, the N/4 of "1 <= M <= N/4" *)
Definition table_range : list (nat * nat) :=
  flat_map (fun n => map (fun m => (n, m)) (seq 1 (2 ^ n / 4))) [2; 3; 4; 5; 6]%nat.

(* table_ok with the iteration left open: table_ok is table_ok_by c_iter, by computation *)
Definition table_ok_by (iter : nat -> nat -> Z -> cls -> cls) (n m : nat) : bool :=
  match grover_iters (2 ^ N.of_nat n) (N.of_nat m) with
  | Some it =>
      let c := iter (S (it - 1)) n (Z.of_nat m) c_init in
      Z.ltb (c_prob c false) (c_prob c true) &&
      Z.ltb (pow2z (grover_k n it)) (2 * Z.of_nat m * c_prob c true)
  | None => false
  end.

Lemma c_prob_iter_tab k n M b : c_prob (c_iter k n M c_init) b = c_prob (c_iter_tab k n M c_init) b.
Proof. unfold c_prob. now rewrite !(c_iter_tab_eq k n M c_init c_init). Qed.

Lemma table_all_ok : forallb (fun nm => table_ok_by c_iter_tab (fst nm) (snd nm)) table_range = true.
Proof. vm_compute. reflexivity. Qed.

Lemma table_range_in n m : (2 <= n <= 6)%nat -> (1 <= m)%nat -> (4 * m <= 2 ^ n)%nat -> In (n, m) table_range.
Proof.
  intros Hn Hm H4. unfold table_range. apply in_flat_map. exists n. split.
  - destruct n as [|[|[|[|[|[|[|n]]]]]]]; try lia; cbn; tauto.
  - apply in_map_iff. exists m. split; [reflexivity|]. apply in_seq.
    assert (m <= 2 ^ n / 4)%nat by (apply Nat.div_le_lower_bound; lia). lia.
Qed.

Lemma table_ok_in n m : (2 <= n <= 6)%nat -> (1 <= m)%nat -> (4 * m <= 2 ^ n)%nat -> table_ok n m = true.
Proof.
  intros Hn Hm H4. pose proof table_all_ok as H. rewrite forallb_forall in H.
  specialize (H (n, m) (table_range_in n m Hn Hm H4)). revert H. unfold table_ok_by, table_ok. cbn [fst snd].
  destruct (grover_iters _ _); [|easy]. now rewrite !c_prob_iter_tab.
Qed.

(* the squared amplitudes of the four basis states (`_ret`, phase) with x on the search register *)
Definition pr4 (psi : N -> Z) (out nq : nat) (x : N) : Z :=
  (psi (enc out nq x false false) * psi (enc out nq x false false) +
   psi (enc out nq x false true) * psi (enc out nq x false true) +
   psi (enc out nq x true false) * psi (enc out nq x true false) +
   psi (enc out nq x true true) * psi (enc out nq x true true))%Z.

Lemma class_state_enc n f c x r p : inr n x ->
  class_state n f c (enc (S n) n x r p) = c (f x) r p.
Proof.
  intros Hx. unfold class_state.
  rewrite (enc_low n), (enc_ret n), (enc_phase n) by (assumption || lia).
  replace (highz (S (S n)) (enc (S n) n x r p)) with true; [reflexivity|].
  symmetry. apply highz_spec. intros j Hj. apply (enc_other n); (assumption || lia).
Qed.

(* pr4 reads a state only at the encoded indices *)
Lemma pr4_ext n psi alpha out nq o p x :
  (forall x r b, inr n x -> psi (enc out nq x r b) = alpha (enc o p x r b)) -> inr n x ->
  pr4 psi out nq x = pr4 alpha o p x.
Proof. intros H Hx. unfold pr4. now rewrite !H. Qed.

(* The two conclusions of C15_grover_amplifies for EVERY predicate with m solutions on 2..6 search qubits, 1 <= m <= N/4,
   default iteration count, read on the abstract state: every solution is strictly more likely
   than every non-solution and the solutions together have probability > 1/2.
   pr4 psi out nq x / 2^k is the probability of reading x on the search register (the other
   basis states with search bits x have amplitude 0). *)
Theorem gabs_amplifies n f m iters :
  (2 <= n <= 6)%nat -> (1 <= m)%nat -> (4 * m <= 2 ^ n)%nat ->
  fcount n f = Z.of_nat m -> grover_iters (2 ^ N.of_nat n) (N.of_nat m) = Some iters ->
  (forall x x', inr n x -> inr n x' -> f x = true -> f x' = false ->
     (pr4 (gabs n f iters) (S n) n x' < pr4 (gabs n f iters) (S n) n x)%Z) /\
  (forall x, inr n x -> f x = true ->
     (pow2z (grover_k n iters) < 2 * Z.of_nat m * pr4 (gabs n f iters) (S n) n x)%Z).
Proof.
  intros Hn Hm H4 Hcnt Hit.
  pose proof (table_ok_in n m Hn Hm H4) as Ht. unfold table_ok in Ht. rewrite Hit in Ht.
  apply andb_true_iff in Ht as [T1 T2]. apply Z.ltb_lt in T1, T2.
  set (cc := c_iter (S (iters - 1)) n (Z.of_nat m) c_init) in *.
  assert (Hp : forall x, inr n x -> pr4 (gabs n f iters) (S n) n x = c_prob cc (f x)).
  { intros x Hxx. unfold pr4, c_prob. rewrite !grover_classes, Hcnt. fold cc. now rewrite !class_state_enc by exact Hxx. }
  split.
  - intros x x' Hxx Hxx' Hf Hf'. rewrite (Hp x Hxx), (Hp x' Hxx'), Hf, Hf'. exact T1.
  - intros x Hxx Hf. rewrite (Hp x Hxx), Hf. exact T2.
Qed.

(* from the C02 and C03 decisions: F x = F x' iff all return bits agree *)
Lemma simonF_values n nq c ds rets :
  xonly nq c = true -> c02_holds n c ds rets -> c03_holds n nq c (map snd rets) ->
  (forall s q, In (s, q) rets -> (n <= q)%nat) ->
  forall x x', inr n x -> inr n x' ->
    (simonF n nq c x = simonF n nq c x' <->
     forall s q, In (s, q) rets -> run_defs (asg x) ds s = run_defs (asg x') ds s).
Proof.
  intros Hx H2 H3 Hq x x' Hxx Hxx'.
  (* a return qubit holds its expression's value ... *)
  assert (A : forall y s q, inr n y -> In (s, q) rets ->
            N.testbit (actf nq c y) (N.of_nat q) = run_defs (asg y) ds s).
  { intros y s q Hy Hin. destruct (H2 y Hy) as (f & Hf & Hv).
    rewrite <- (fsim_basis_actf n nq c y f Hx Hy Hf). now apply Hv. }
  (* ... and every other qubit above the input register is left at 0 *)
  assert (B : forall j, N.of_nat n <= j -> (exists s q, In (s, q) rets /\ j = N.of_nat q) \/
                (forall y, inr n y -> N.testbit (actf nq c y) j = false)).
  { intros j Hj. destruct (N.lt_ge_cases j (N.of_nat nq)) as [Hl|Hl].
    - destruct (in_dec Nat.eq_dec (N.to_nat j) (map snd rets)) as [Hin|Hnin].
      + left. apply in_map_iff in Hin as ([s q] & E & Hin). exists s, q. split; [exact Hin|]. cbn [snd] in E. lia.
      + right. intros y Hy. destruct (H3 y Hy) as (f & Hf & _ & Hz).
        rewrite <- (N2Nat.id j), <- (fsim_basis_actf n nq c y f Hx Hy Hf). apply Hz; [lia|exact Hnin].
    - right. intros y Hy. rewrite actf_high by exact Hl. apply (inr_high n y); [exact Hy|lia]. }
  change (hi n (actf nq c x) = hi n (actf nq c x') <->
          (forall s q, In (s, q) rets -> run_defs (asg x) ds s = run_defs (asg x') ds s)).
  rewrite hi_eq. split.
  - intros E s q Hin. rewrite <- (A x s q Hxx Hin), <- (A x' s q Hxx' Hin). apply E. specialize (Hq s q Hin). lia.
  - intros E j Hj. destruct (B j Hj) as [(s & q & Hin & ->)|Hz].
    + rewrite (A x s q Hxx Hin), (A x' s q Hxx' Hin). now apply (E s q).
    + now rewrite !Hz.
Qed.

