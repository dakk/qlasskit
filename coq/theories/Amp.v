(* Amp.v — EXACT amplitude semantics of the gate set used by qlasskit's
   algorithm circuits: {I, X, Z, H, CX, CCX, MCX n, MCtrl X n, CZ, MCtrl Z n,
   Swap, Barrier, Nop}.

   A state is an integer-valued amplitude per basis index (N; bit q of the
   index = qubit q) together with a counter k meaning "divide every amplitude
   by sqrt(2)^k".  The unnormalised H maps |b> to |0> + (-1)^b |1> and adds 1 to
   k, so all arithmetic is in Z and two outcome probabilities a^2/2^k compare as
   integers.

   Two semantics:
   * the REFERENCE semantics on total functions  N -> Z  (ref_step / run_ref),
   * an executable one on finite sorted association lists (imp_step / run_imp;
     run_amp is run_imp from |0...0>) that is fast under vm_compute when the support is small,
   and the theorem amp_run_spec: they agree pointwise, gate list by gate list.
   Correctness never depends on the lists being sorted (the meaning of a list
   is the SUM of the entries with a given key); sortedness only keeps the lists
   short, and is checked at the end (strictly_sorted) where the probabilities
   are read off. *)
From Coq Require Import List Bool NArith ZArith Arith Lia.
From QV Require Import Bits Circ.
Import ListNotations.
Local Open Scope N_scope.

Definition bitm (q : N) : N := N.shiftl 1 q.
Definition ctl (cs : list N) (i : N) : bool := forallb (N.testbit i) cs.
Definition flipq (t : N) (i : N) : N := N.lxor i (bitm t).
Definition xperm (cs : list N) (t : N) (i : N) : N := if ctl cs i then flipq t i else i.
Definition swperm (a b : N) (i : N) : N :=
  if Bool.eqb (N.testbit i a) (N.testbit i b) then i else flipq b (flipq a i).

Lemma bitm_pow q : bitm q = 2 ^ q.
Proof. unfold bitm. now rewrite N.shiftl_1_l. Qed.

Lemma flipq_bits t i m : N.testbit (flipq t i) m = xorb (N.testbit i m) (N.eqb t m).
Proof. unfold flipq. now rewrite N.lxor_spec, bitm_pow, N.pow2_bits_eqb. Qed.

Lemma flipq_invol t i : flipq t (flipq t i) = i.
Proof. unfold flipq. now rewrite N.lxor_assoc, N.lxor_nilpotent, N.lxor_0_r. Qed.

Lemma ctl_flipq cs t i : ~ In t cs -> ctl cs (flipq t i) = ctl cs i.
Proof.
  intros H. unfold ctl. induction cs as [|c cs IH]; [reflexivity|]. cbn [forallb].
  rewrite IH by (intros Hc; apply H; now right). f_equal.
  rewrite flipq_bits. destruct (N.eqb_spec t c) as [->|_]; [exfalso; apply H; now left|apply xorb_false_r].
Qed.

Lemma xperm_invol cs t i : ~ In t cs -> xperm cs t (xperm cs t i) = i.
Proof.
  intros H. unfold xperm. destruct (ctl cs i) eqn:E.
  - rewrite ctl_flipq, E by exact H. apply flipq_invol.
  - now rewrite E.
Qed.

Lemma flipq_comm a b i : flipq a (flipq b i) = flipq b (flipq a i).
Proof. unfold flipq. rewrite !N.lxor_assoc. f_equal. apply N.lxor_comm. Qed.

Lemma swperm_invol a b i : swperm a b (swperm a b i) = i.
Proof.
  unfold swperm. destruct (Bool.eqb (N.testbit i a) (N.testbit i b)) eqn:E; [now rewrite E|].
  rewrite !flipq_bits, !N.eqb_refl.
  destruct (N.eqb_spec a b) as [->|Hab]; [rewrite eqb_reflx in E; discriminate|].
  destruct (N.eqb_spec b a) as [Hba|_]; [now subst|].
  replace (Bool.eqb _ _) with false.
  - rewrite (flipq_comm a b), flipq_invol. apply flipq_invol.
  - destruct (N.testbit i a), (N.testbit i b); cbn [xorb Bool.eqb] in *; congruence.
Qed.

Lemma flipq_testbit q i : N.testbit (flipq q i) q = negb (N.testbit i q).
Proof. rewrite flipq_bits, N.eqb_refl. apply xorb_true_r. Qed.
Lemma flipq_testbit_other q i m : q <> m -> N.testbit (flipq q i) m = N.testbit i m.
Proof. intros H. rewrite flipq_bits. apply N.eqb_neq in H. rewrite H. apply xorb_false_r. Qed.

(* setting or clearing a bit either does nothing or flips it *)
Lemma setbit_flipq i q : N.setbit i q = if N.testbit i q then i else flipq q i.
Proof.
  apply N.bits_inj. intros m. rewrite N.setbit_eqb. destruct (N.eqb_spec q m) as [<-|Hne]; cbn [orb].
  - destruct (N.testbit i q) eqn:E; [now rewrite E|now rewrite flipq_testbit, E].
  - destruct (N.testbit i q); [reflexivity|now rewrite flipq_testbit_other].
Qed.
Lemma clearbit_flipq i q : N.clearbit i q = if N.testbit i q then flipq q i else i.
Proof.
  apply N.bits_inj. intros m. rewrite N.clearbit_eqb. destruct (N.eqb_spec q m) as [<-|Hne]; cbn [negb].
  - rewrite andb_false_r. destruct (N.testbit i q) eqn:E; [now rewrite flipq_testbit, E|now rewrite E].
  - rewrite andb_true_r. destruct (N.testbit i q); [now rewrite flipq_testbit_other|reflexivity].
Qed.

Lemma setbit_clearbit j q : N.testbit j q = true -> N.setbit (N.clearbit j q) q = j.
Proof. intros H. rewrite clearbit_flipq, H, setbit_flipq, flipq_testbit, H. apply flipq_invol. Qed.

Lemma flipq_lxor q i a : flipq q (N.lxor i a) = N.lxor (flipq q i) a.
Proof. unfold flipq. now rewrite !N.lxor_assoc, (N.lxor_comm a). Qed.

(* "no bit of i outside the mask m": the form of highz, cleanb and clean3 in P_Algo.v *)
Lemma within_spec i m :
  N.eqb (N.ldiff i m) 0 = true <-> (forall j, N.testbit i j = true -> N.testbit m j = true).
Proof.
  rewrite N.eqb_eq. split.
  - intros H j Hj. assert (Hb : N.testbit (N.ldiff i m) j = false) by (rewrite H; apply N.bits_0).
    rewrite N.ldiff_spec, Hj in Hb. now apply negb_false_iff in Hb.
  - intros H. apply N.bits_inj_0. intros j. rewrite N.ldiff_spec.
    destruct (N.testbit i j) eqn:Hj; [|reflexivity]. now rewrite (H j Hj).
Qed.

(* ... so it is insensitive to the bits of i inside the mask *)
Lemma within_ext i i' m : (forall j, N.testbit m j = false -> N.testbit i j = N.testbit i' j) ->
  N.eqb (N.ldiff i m) 0 = N.eqb (N.ldiff i' m) 0.
Proof.
  intros H. f_equal. apply N.bits_inj. intros j. rewrite !N.ldiff_spec.
  destruct (N.testbit m j) eqn:E; [now rewrite !andb_false_r|]. now rewrite H.
Qed.

Lemma within_flipq q i m : N.testbit m q = true -> N.eqb (N.ldiff (flipq q i) m) 0 = N.eqb (N.ldiff i m) 0.
Proof.
  intros H. apply within_ext. intros j Hj. apply flipq_testbit_other. intros ->. congruence.
Qed.

Lemma bitm_bits q j : N.testbit (bitm q) j = N.eqb q j.
Proof. now rewrite bitm_pow, N.pow2_bits_eqb. Qed.

Inductive aact :=
| AX (cs : list N) (t : N)      (* X on t controlled by cs *)
| AZ (qs : list N)              (* sign flip where all of qs are 1 *)
| AH (q : N)
| ASw (a b : N)
| AId
| ANone.

Fixpoint nodupb (l : list nat) : bool :=
  match l with [] => true | x :: r => negb (existsb (Nat.eqb x) r) && nodupb r end.
Definition qs_ok (nq : nat) (qs : list nat) : bool :=
  forallb (fun q => Nat.ltb q nq) qs && nodupb qs.
Definition nN (l : list nat) : list N := map N.of_nat l.

(* the action of a gate of an nq-qubit circuit; ANone: outside the gate set,
   or a qubit index out of range, or a repeated qubit *)
Definition aact_of (nq : nat) (g : gate) : aact :=
  if negb (qs_ok nq (gqs g)) then ANone else
  match cact_of g with
  | CFlip cs t => AX (nN cs) (N.of_nat t)
  | CId => AId
  | CNone =>
      match gkind g, gqs g with
      | K1 BH, [q] => AH (N.of_nat q)
      | K1 BZ, [q] => AZ [N.of_nat q]
      | KCZ, [a; b] => AZ [N.of_nat a; N.of_nat b]
      | KMCtrl BZ n, qs => if Nat.eqb (length qs) (S n) then AZ (nN qs) else ANone
      | K1 BSwap, [a; b] => ASw (N.of_nat a) (N.of_nat b)
      | _, _ => ANone
      end
  end.

Definition refX (cs : list N) (t : N) (psi : N -> Z) : N -> Z := fun i => psi (xperm cs t i).
Definition refZ (qs : list N) (psi : N -> Z) : N -> Z :=
  fun i => if ctl qs i then (- psi i)%Z else psi i.
Definition refH (q : N) (psi : N -> Z) : N -> Z :=
  fun i => (psi (N.clearbit i q) +
            (if N.testbit i q then - psi (N.setbit i q) else psi (N.setbit i q)))%Z.
Definition refSw (a b : N) (psi : N -> Z) : N -> Z := fun i => psi (swperm a b i).

(* H reads the index and its neighbour across qubit q *)
Lemma refH_flipq q psi i :
  refH q psi i = if N.testbit i q then (psi (flipq q i) - psi i)%Z else (psi i + psi (flipq q i))%Z.
Proof. unfold refH. rewrite setbit_flipq, clearbit_flipq. destruct (N.testbit i q); lia. Qed.

(* H on a qubit commutes with a relabelling of the basis that does not move that qubit *)
Lemma refH_lxor a m chi j : N.testbit m a = false ->
  refH a (fun t => chi (N.lxor t m)) j = refH a chi (N.lxor j m).
Proof. intros H. rewrite !refH_flipq, flipq_lxor, N.lxor_spec, H. now rewrite xorb_false_r. Qed.

Definition rstate : Type := (N -> Z) * nat.
Definition ref_step (a : aact) (s : rstate) : option rstate :=
  match a with
  | AX cs t => Some (refX cs t (fst s), snd s)
  | AZ qs => Some (refZ qs (fst s), snd s)
  | AH q => Some (refH q (fst s), S (snd s))
  | ASw a b => Some (refSw a b (fst s), snd s)
  | AId => Some s
  | ANone => None
  end.
Fixpoint run_ref (nq : nat) (c : circuit) (s : rstate) : option rstate :=
  match c with
  | [] => Some s
  | g :: r => match ref_step (aact_of nq g) s with Some s' => run_ref nq r s' | None => None end
  end.
(* |0...0> *)
Definition delta0 : N -> Z := fun i => if N.eqb i 0 then 1%Z else 0%Z.

Definition feq (f g : N -> Z) : Prop := forall i, f i = g i.
Definition rs_eq (s1 s2 : rstate) : Prop := feq (fst s1) (fst s2) /\ snd s1 = snd s2.

Lemma ref_step_ext a s1 s2 : rs_eq s1 s2 -> opt_rel rs_eq (ref_step a s1) (ref_step a s2).
Proof.
  intros [Hf Hk]. destruct s1 as [p1 k1], s2 as [p2 k2]; cbn [fst snd] in *. subst k2.
  destruct a; cbn [ref_step opt_rel fst snd]; try exact I; (split; [|reflexivity]); cbn [fst];
    intros i; unfold refX, refZ, refH, refSw; rewrite ?Hf; reflexivity.
Qed.

Lemma run_ref_ext nq c : forall s1 s2, rs_eq s1 s2 -> opt_rel rs_eq (run_ref nq c s1) (run_ref nq c s2).
Proof.
  induction c as [|g c IH]; intros s1 s2 H; cbn [run_ref]; [exact H|].
  pose proof (ref_step_ext (aact_of nq g) s1 s2 H) as Hs.
  destruct (ref_step (aact_of nq g) s1), (ref_step (aact_of nq g) s2); cbn in Hs; try contradiction; [|exact I].
  now apply IH.
Qed.

Lemma run_ref_app nq c1 c2 s :
  run_ref nq (c1 ++ c2) s = match run_ref nq c1 s with Some s' => run_ref nq c2 s' | None => None end.
Proof.
  revert s; induction c1 as [|g c1 IH]; intros s; cbn [app run_ref]; [reflexivity|].
  destruct (ref_step (aact_of nq g) s); [apply IH|reflexivity].
Qed.

Definition amps := list (N * Z).

(* the meaning of a list: sum of the entries whose key satisfies P *)
Fixpoint asum (P : N -> bool) (l : amps) : Z :=
  match l with
  | [] => 0%Z
  | e :: r => ((if P (fst e) then snd e else 0) + asum P r)%Z
  end.
Definition amp_of (l : amps) (i : N) : Z := asum (N.eqb i) l.

Fixpoint merge (l1 l2 : amps) {struct l1} : amps :=
  let fix go (l2 : amps) {struct l2} : amps :=
    match l1, l2 with
    | [], _ => l2
    | _, [] => l1
    | e1 :: r1, e2 :: r2 =>
        match N.compare (fst e1) (fst e2) with
        | Lt => e1 :: merge r1 l2
        | Gt => e2 :: go r2
        | Eq => (fst e1, (snd e1 + snd e2)%Z) :: merge r1 r2
        end
    end in go l2.

Definition map_key (p : N -> N) (l : amps) : amps := map (fun e => (p (fst e), snd e)) l.
Definition filter_key (Q : N -> bool) (l : amps) : amps := filter (fun e => Q (fst e)) l.
Definition negate (l : amps) : amps := map (fun e => (fst e, (- snd e)%Z)) l.
Definition dropz (l : amps) : amps := filter (fun e => negb (Z.eqb (snd e) 0)) l.

Lemma asum_ext P Q l : (forall j, P j = Q j) -> asum P l = asum Q l.
Proof. intros H. induction l as [|e r IH]; cbn [asum]; [reflexivity|now rewrite H, IH]. Qed.

Lemma asum_false P l : (forall j, P j = false) -> asum P l = 0%Z.
Proof. intros H. induction l as [|e r IH]; cbn [asum]; [reflexivity|now rewrite H, IH]. Qed.

Lemma asum_merge P : forall l1 l2, asum P (merge l1 l2) = (asum P l1 + asum P l2)%Z.
Proof.
  induction l1 as [|e1 r1 IH1]; intros l2.
  - destruct l2; reflexivity.
  - induction l2 as [|e2 r2 IH2].
    + cbn [merge asum]. lia.
    + cbn [merge]. destruct (N.compare_spec (fst e1) (fst e2)) as [He|Hl|Hg].
      * cbn [asum fst snd]. rewrite IH1, <- He. destruct (P (fst e1)); lia.
      * cbn [asum]. rewrite IH1. cbn [asum]. lia.
      * cbn [asum]. cbn [merge] in IH2. rewrite IH2. cbn [asum]. lia.
Qed.

Lemma asum_map_key P p l : asum P (map_key p l) = asum (fun j => P (p j)) l.
Proof. induction l as [|e r IH]; cbn [map_key map asum fst snd]; [reflexivity|]. unfold map_key in IH. now rewrite IH. Qed.

Lemma asum_filter_key P Q l : asum P (filter_key Q l) = asum (fun j => P j && Q j) l.
Proof.
  induction l as [|e r IH]; cbn [filter_key filter asum]; [reflexivity|]. unfold filter_key in IH.
  destruct (Q (fst e)); cbn [asum]; rewrite IH.
  - now rewrite andb_true_r.
  - now rewrite andb_false_r.
Qed.

Lemma asum_negate P l : asum P (negate l) = (- asum P l)%Z.
Proof.
  induction l as [|e r IH]; cbn [negate map asum fst snd]; [reflexivity|]. unfold negate in IH.
  rewrite IH. destruct (P (fst e)); lia.
Qed.

Lemma asum_dropz P l : asum P (dropz l) = asum P l.
Proof.
  induction l as [|e r IH]; cbn [dropz filter asum]; [reflexivity|]. unfold dropz in IH.
  destruct (Z.eqb_spec (snd e) 0) as [H0|H0]; cbn [negb asum]; rewrite IH; [|reflexivity].
  rewrite H0. destruct (P (fst e)); reflexivity.
Qed.

Lemma asum_split Q P l :
  asum P l = (asum P (filter_key Q l) + asum P (filter_key (fun j => negb (Q j)) l))%Z.
Proof.
  rewrite !asum_filter_key. induction l as [|e r IH]; cbn [asum]; [reflexivity|].
  rewrite IH. destruct (P (fst e)), (Q (fst e)); cbn; lia.
Qed.

(* re-establish sortedness after a key map that moves three classes of keys
   by a constant each: (P,Q), (P, not Q), (not P).  Nothing is proved about sortedness
   (see the head of the file): only asum_resplit is needed *)
Definition resplit (P Q : N -> bool) (l : amps) : amps :=
  let lp := filter_key P l in
  merge (merge (filter_key Q lp) (filter_key (fun j => negb (Q j)) lp))
        (filter_key (fun j => negb (P j)) l).

Lemma asum_resplit P Q R l : asum R (resplit P Q l) = asum R l.
Proof.
  unfold resplit. rewrite !asum_merge, <- (asum_split Q R (filter_key P l)). symmetry. apply asum_split.
Qed.

Definition impX (cs : list N) (t : N) (l : amps) : amps :=
  resplit (ctl cs) (fun j => N.testbit j t) (map_key (xperm cs t) l).
Definition impZ (qs : list N) (l : amps) : amps :=
  map (fun e => (fst e, if ctl qs (fst e) then (- snd e)%Z else snd e)) l.
Definition impH (q : N) (l : amps) : amps :=
  let l0 := filter_key (fun j => negb (N.testbit j q)) l in
  let l1 := map_key (fun j => N.clearbit j q) (filter_key (fun j => N.testbit j q) l) in
  let s := merge l0 l1 in
  let d := map_key (fun j => N.setbit j q) (merge l0 (negate l1)) in
  dropz (merge s d).
Definition impSw (a b : N) (l : amps) : amps :=
  resplit (fun j => negb (Bool.eqb (N.testbit j a) (N.testbit j b))) (fun j => N.testbit j a)
          (map_key (swperm a b) l).

Definition istate : Type := amps * nat.
Definition imp_step (a : aact) (s : istate) : option istate :=
  match a with
  | AX cs t => Some (impX cs t (fst s), snd s)
  | AZ qs => Some (impZ qs (fst s), snd s)
  | AH q => Some (impH q (fst s), S (snd s))
  | ASw a b => Some (impSw a b (fst s), snd s)
  | AId => Some s
  | ANone => None
  end.
Fixpoint run_imp (nq : nat) (c : circuit) (s : istate) : option istate :=
  match c with
  | [] => Some s
  | g :: r => match imp_step (aact_of nq g) s with Some s' => run_imp nq r s' | None => None end
  end.
Definition init_amps : amps := [(0, 1%Z)].
(* the circuit applied to |0...0> *)
Definition run_amp (nq : nat) (c : circuit) : option istate := run_imp nq c (init_amps, 0%nat).

Definition aact_wf (a : aact) : Prop :=
  match a with AX cs t => ~ In t cs | _ => True end.

Lemma nodupb_NoDup l : nodupb l = true <-> NoDup l.
Proof.
  induction l as [|x r IH]; cbn [nodupb]; [split; [constructor|reflexivity]|].
  now rewrite andb_true_iff, negb_true_iff, IH, NoDup_cons_iff, <- existsb_eqb_in, not_true_iff_false.
Qed.

(* an X-family gate: its qubit list is controls ++ [target] *)
Lemma cact_of_flip g cs t : cact_of g = CFlip cs t -> gqs g = cs ++ [t].
Proof.
  unfold cact_of. intros H.
  assert (E : gqs g <> [] /\ CFlip (removelast (gqs g)) (last (gqs g) 0%nat) = CFlip cs t).
  { destruct (gkind g) as [b| | | | |n|b n| |]; try destruct b; cbn [x_controls] in H; try discriminate;
      (destruct (gqs g); [discriminate|]); split; try discriminate;
      match type of H with (if ?c then _ else _) = _ => destruct c end; now try discriminate. }
  destruct E as [Hne E]. injection E as <- <-. now apply app_removelast_last.
Qed.

(* when the classical reading of a gate is CNone its action is not in the X family *)
Lemma aact_of_CNone nq g : cact_of g = CNone ->
  match aact_of nq g with AX _ _ | AId => False | _ => True end.
Proof.
  unfold aact_of. intros ->. destruct (negb (qs_ok nq (gqs g))); [exact I|].
  destruct (gkind g) as [b| | | | |n|b n| |]; try destruct b; try exact I;
    destruct (gqs g) as [|? [|? [|? ?]]]; try exact I;
    match goal with |- context [if ?c then _ else _] => destruct c end; exact I.
Qed.

Lemma aact_of_AX nq g cs t : aact_of nq g = AX cs t ->
  exists cs' t', cact_of g = CFlip cs' t' /\ cs = nN cs' /\ t = N.of_nat t' /\
    ~ In t' cs' /\ (t' < nq)%nat /\ forall q, In q cs' -> (q < nq)%nat.
Proof.
  intros H. pose proof (aact_of_CNone nq g) as Hn. rewrite H in Hn. unfold aact_of in H.
  destruct (qs_ok nq (gqs g)) eqn:Hok; cbn [negb] in H; [|discriminate].
  destruct (cact_of g) as [cs' t'| |] eqn:Ec; [|discriminate|now elim Hn].
  injection H as <- <-. exists cs', t'. do 3 (split; [reflexivity|]).
  apply cact_of_flip in Ec. unfold qs_ok in Hok. rewrite Ec in Hok.
  apply andb_true_iff in Hok as [Hlt Hnd]. apply nodupb_NoDup, NoDup_remove_2 in Hnd.
  rewrite app_nil_r in Hnd. split; [exact Hnd|]. rewrite forallb_app, andb_true_iff in Hlt.
  destruct Hlt as [Hcs Ht]. cbn [forallb] in Ht. rewrite andb_true_r in Ht. split; [now apply Nat.ltb_lt|].
  intros q Hq. rewrite forallb_forall in Hcs. now apply Nat.ltb_lt, Hcs.
Qed.

Lemma aact_of_AId nq g : aact_of nq g = AId -> cact_of g = CId.
Proof.
  intros H. pose proof (aact_of_CNone nq g) as Hn. rewrite H in Hn. unfold aact_of in H.
  destruct (negb (qs_ok nq (gqs g))); [discriminate|].
  destruct (cact_of g); [discriminate|reflexivity|now elim Hn].
Qed.

Lemma aact_of_wf nq g : aact_wf (aact_of nq g).
Proof.
  destruct (aact_of nq g) as [cs t| | | | |] eqn:E; try exact I.
  apply aact_of_AX in E as (cs' & t' & _ & -> & -> & Hn & _). cbn [aact_wf]. unfold nN. rewrite in_map_iff.
  intros (y & Hy & Hin). apply Nat2N.inj in Hy. now subst y.
Qed.

Definition repr (l : amps) (psi : N -> Z) : Prop := forall i, amp_of l i = psi i.

Lemma eqb_swap_perm (p : N -> N) i j : (forall x, p (p x) = x) -> N.eqb i (p j) = N.eqb (p i) j.
Proof.
  intros Hp. destruct (N.eqb_spec i (p j)) as [H1|H1], (N.eqb_spec (p i) j) as [H2|H2]; try reflexivity.
  - exfalso. apply H2. now rewrite H1, Hp.
  - exfalso. apply H1. now rewrite <- H2, Hp.
Qed.

Lemma impX_spec cs t l psi : ~ In t cs -> repr l psi -> repr (impX cs t l) (refX cs t psi).
Proof.
  intros Hw H i. unfold impX, amp_of, refX. rewrite asum_resplit, asum_map_key, <- H. unfold amp_of.
  apply asum_ext. intros j. apply eqb_swap_perm. intros x. now apply xperm_invol.
Qed.

Lemma impSw_spec a b l psi : repr l psi -> repr (impSw a b l) (refSw a b psi).
Proof.
  intros H i. unfold impSw, amp_of, refSw. rewrite asum_resplit, asum_map_key, <- H. unfold amp_of.
  apply asum_ext. intros j. apply eqb_swap_perm. apply swperm_invol.
Qed.

Lemma impZ_spec qs l psi : repr l psi -> repr (impZ qs l) (refZ qs psi).
Proof.
  intros H i. unfold refZ. cbv beta. rewrite <- !H. unfold amp_of, impZ. clear H.
  induction l as [|e r IH]; cbn [map asum fst snd]; [now destruct (ctl qs i)|].
  rewrite IH. destruct (N.eqb_spec i (fst e)) as [<-|_].
  - destruct (ctl qs i); lia.
  - destruct (ctl qs i); lia.
Qed.

(* entries selected by Q and moved by a key map that is an involution p' on the selected keys:
   what arrives at i is what sat at p' i, if that was selected *)
Lemma asum_point (p p' : N -> N) (Q : N -> bool) l i :
  (forall x, p' (p' x) = x) -> (forall j, Q j = true -> p j = p' j) ->
  asum (fun j => N.eqb i (p j) && Q j) l = if Q (p' i) then amp_of l (p' i) else 0%Z.
Proof.
  intros Hinv Hp. unfold amp_of. destruct (Q (p' i)) eqn:E; [apply asum_ext|apply asum_false]; intros j;
    (destruct (Q j) eqn:Ej; [rewrite andb_true_r, (Hp j Ej), (eqb_swap_perm p' i j Hinv)|rewrite andb_false_r]);
    try reflexivity; destruct (N.eqb_spec (p' i) j) as [<-|_]; congruence.
Qed.

Lemma impH_spec q l psi : repr l psi -> repr (impH q l) (refH q psi).
Proof.
  intros H i. rewrite refH_flipq, <- !H. clear H. unfold impH, amp_of.
  rewrite asum_dropz, asum_merge, asum_map_key, !asum_merge, asum_negate, !asum_map_key, !asum_filter_key.
  (* the four parts: entries with the bit clear / set, arriving at i unmoved / from across qubit q *)
  rewrite (asum_point (fun j => j) (fun j => j) (fun j => negb (N.testbit j q)) l i) by reflexivity.
  rewrite (asum_point (fun j => N.clearbit j q) (flipq q) (fun j => N.testbit j q) l i)
    by (apply flipq_invol || (intros j Hj; now rewrite clearbit_flipq, Hj)).
  rewrite (asum_point (fun j => N.setbit j q) (flipq q) (fun j => negb (N.testbit j q)) l i)
    by (apply flipq_invol || (intros j Hj; apply negb_true_iff in Hj; now rewrite setbit_flipq, Hj)).
  rewrite (asum_point (fun j => N.setbit (N.clearbit j q) q) (fun j => j) (fun j => N.testbit j q) l i)
    by (reflexivity || (intros j Hj; now apply setbit_clearbit)).
  rewrite flipq_testbit. unfold amp_of. destruct (N.testbit i q); cbn [negb]; lia.
Qed.

Definition st_repr (s : istate) (r : rstate) : Prop := repr (fst s) (fst r) /\ snd s = snd r.

Lemma imp_step_spec a s r : aact_wf a -> st_repr s r -> opt_rel st_repr (imp_step a s) (ref_step a r).
Proof.
  intros Hw [Hr Hk]. destruct a; cbn [imp_step ref_step opt_rel]; try exact I.
  - split; cbn [fst snd]; [now apply impX_spec|congruence].
  - split; cbn [fst snd]; [now apply impZ_spec|congruence].
  - split; cbn [fst snd]; [now apply impH_spec|congruence].
  - split; cbn [fst snd]; [now apply impSw_spec|congruence].
  - now split.
Qed.

Theorem run_imp_spec nq c : forall s r, st_repr s r -> opt_rel st_repr (run_imp nq c s) (run_ref nq c r).
Proof.
  induction c as [|g c IH]; intros s r H; cbn [run_imp run_ref]; [exact H|].
  pose proof (imp_step_spec (aact_of nq g) s r (aact_of_wf nq g) H) as Hs.
  destruct (imp_step (aact_of nq g) s), (ref_step (aact_of nq g) r); cbn in Hs; try contradiction; [|exact I].
  now apply IH.
Qed.

Lemma init_repr : repr init_amps delta0.
Proof.
  intros i. unfold amp_of, init_amps, delta0. cbn [asum fst snd]. destruct (N.eqb i 0); reflexivity.
Qed.

(* whatever the evaluator returns is, pointwise, the
   reference state of the same gate list applied to |0...0>, and it fails
   exactly when the reference semantics is undefined *)
Theorem amp_run_spec nq c :
  match run_amp nq c, run_ref nq c (delta0, 0%nat) with
  | Some (l, k), Some (psi, k') => k = k' /\ forall i, amp_of l i = psi i
  | None, None => True
  | _, _ => False
  end.
Proof.
  unfold run_amp.
  pose proof (run_imp_spec nq c (init_amps, 0%nat) (delta0, 0%nat) (conj init_repr eq_refl)) as H.
  destruct (run_imp nq c (init_amps, 0%nat)) as [[l k]|], (run_ref nq c (delta0, 0%nat)) as [[psi k']|];
    cbn in H; try contradiction; [|exact I].
  destruct H as [H1 H2]. cbn [fst snd] in *. now split.
Qed.

(* numerator of the probability of the event P (denominator 2^k) *)
Fixpoint sqsum (P : N -> bool) (l : amps) : Z :=
  match l with
  | [] => 0%Z
  | e :: r => ((if P (fst e) then snd e * snd e else 0) + sqsum P r)%Z
  end.

Fixpoint strictly_sorted (l : amps) : bool :=
  match l with
  | [] => true
  | e :: r => match r with [] => true | e' :: _ => N.ltb (fst e) (fst e') && strictly_sorted r end
  end.

Lemma sorted_cons e r : strictly_sorted (e :: r) = true ->
  strictly_sorted r = true /\ forall i, i <= fst e -> amp_of r i = 0%Z.
Proof.
  revert e. induction r as [|e1 r IH]; intros e Hs; [now split|].
  cbn [strictly_sorted] in Hs. apply andb_true_iff in Hs as [H1 H2]. apply N.ltb_lt in H1. split; [exact H2|].
  intros i Hi. unfold amp_of. cbn [asum]. fold (amp_of r i). rewrite (proj2 (IH e1 H2)) by lia.
  destruct (N.eqb_spec i (fst e1)); [lia|reflexivity].
Qed.

Definition msort (l : amps) : amps := fold_right (fun e acc => merge [e] acc) [] l.

Lemma asum_msort P l : asum P (msort l) = asum P l.
Proof.
  induction l as [|e r IH]; [reflexivity|]. cbn [msort fold_right]. fold (msort r).
  rewrite asum_merge, IH. cbn [asum]. lia.
Qed.

(* marginal distribution over the qubits selected by [mask]: list of
   (outcome restricted to the mask, probability numerator), sorted by outcome *)
Definition marginal (mask : N) (l : amps) : amps :=
  msort (map (fun e => (N.land (fst e) mask, (snd e * snd e)%Z)) l).

Lemma marginal_spec mask l y :
  amp_of (marginal mask l) y = sqsum (fun j => N.eqb y (N.land j mask)) l.
Proof.
  unfold marginal, amp_of. rewrite asum_msort.
  induction l as [|e r IH]; cbn [map asum sqsum fst snd]; [reflexivity|]. now rewrite IH.
Qed.

Definition mask_of (qs : list nat) : N := fold_right (fun q acc => N.lor (bitm (N.of_nat q)) acc) 0 qs.

(* every key of the list is a basis index of an nq-qubit register *)
Definition keys_below (nq : nat) (l : amps) : bool :=
  forallb (fun e => N.ltb (fst e) (2 ^ N.of_nat nq)) l.

(* the classical reversible part: X / CX / CCX / MCX / MCtrl X / identity gates on
   distinct qubits below nq *)
Definition is_x (a : aact) : bool := match a with AX _ _ | AId => true | _ => false end.
Definition xonly (nq : nat) (c : circuit) : bool := forallb (fun g => is_x (aact_of nq g)) c.
