(* P_QCircuit.v — theorems about the circuit composition operators of
   M_QCircuit.v, proved over an ABSTRACT semantics: a type U with an equivalence,
   an associative composition with identity, a denotation of every gate and an
   action of qubit permutations.  The laws used (self-inverse gates, CP(-t)
   inverse of CP(t), disjoint swaps commute, denotation commutes with qubit
   renaming, barriers denote the identity) are named in Section Laws and are the
   hypotheses of Section Composition; each theorem depends only on the ones it
   uses.  The laws are then PROVED for an exact semantics of the
   permutation+phase gates (X Y Z S T P CX CZ CP CCX MCX MCtrl Swap) whose
   classical part is the fsim of Circ.v. *)
From Coq Require Import List Bool NArith ZArith Arith Lia Setoid Morphisms QArith Lqa.
From QV Require Import Circ M_QCircuit.
Import ListNotations.
Local Open Scope nat_scope.

Record perm := mkperm {
  pf : nat -> nat; pinv : nat -> nat;
  pinv_pf : forall x, pinv (pf x) = x;
  pf_pinv : forall x, pf (pinv x) = x }.

Definition gmap (f : nat -> nat) (g : qgate) : qgate :=
  mkq (qobj g) (qkind g) (map f (qqs g)) (qpar g).
Definition gate_ok (g : qgate) : Prop := NoDup (qqs g) /\ length (qqs g) = arity (qkind g).
Definition in_range (n : nat) (l : list qgate) : Prop :=
  Forall (fun g => Forall (fun q => q < n) (qqs g)) l.
(* a gate without the identity of its Python object *)
Definition gsig (g : qgate) : pgate := (qkind g, qqs g, qpar g).
Definition phase_neg (p : phase) : phase :=
  match p with PhNone => PhNone | PhRat z n => PhRat (- z) n | PhPi2 s k => PhPi2 (negb s) k end.
Definition ginv (g : pgate) : pgate := match g with (k, qs, p) => (k, qs, phase_neg p) end.
(* qobj stands for id(gate object): one Python object has one class *)
Definition ids_consistent (l : list qgate) : Prop :=
  forall a b, In a l -> In b l -> qobj a = qobj b -> qkind a = qkind b.
(* p sends i to qubits[i]: what append_circuit does with its qubit list, read as a renaming *)
Definition extends (p : perm) (qs : list nat) : Prop :=
  forall i, i < length qs -> pf p i = nth i qs 0.

Lemma existsb_false {A} (f : A -> bool) l :
  existsb f l = false <-> Forall (fun x => f x = false) l.
Proof.
  induction l as [|x l IH]; cbn [existsb]; [split; [constructor|reflexivity]|].
  rewrite orb_false_iff, IH. split; [intros [H1 H2]; now constructor|intros H; now inversion H].
Qed.

Lemma nodupb_NoDup l : nodupb l = true <-> NoDup l.
Proof.
  induction l as [|x l IH]; cbn [nodupb]; [split; [constructor|reflexivity]|].
  rewrite andb_true_iff, negb_true_iff, existsb_false, IH, Forall_forall. split.
  - intros [H1 H2]. constructor; [|exact H2]. intros Hin. apply H1 in Hin. now rewrite Nat.eqb_refl in Hin.
  - intros H. inversion H as [|? ? Hx Hr]; subst. split; [|exact Hr].
    intros y Hy. apply Nat.eqb_neq. intros ->. contradiction.
Qed.

Lemma list_nat_eqb_eq a : forall b, list_nat_eqb a b = true -> a = b.
Proof.
  induction a as [|x a IH]; intros [|y b]; cbn [list_nat_eqb]; try discriminate; [reflexivity|].
  intros H. apply andb_prop in H as [H1 H2]. apply Nat.eqb_eq in H1. f_equal; [exact H1|now apply IH].
Qed.

Lemma phase_eqb_eq p q : phase_eqb p q = true -> p = q.
Proof.
  destruct p, q; cbn [phase_eqb]; try discriminate; try reflexivity; intros H;
    apply andb_prop in H as [H1 H2].
  - apply Z.eqb_eq in H1. apply N.eqb_eq in H2. now subst.
  - apply Bool.eqb_prop in H1. apply Nat.eqb_eq in H2. now subst.
Qed.

Lemma qgate_eqb_spec a b : qgate_eqb a b = true ->
  qobj a = qobj b /\ qqs a = qqs b /\ qpar a = qpar b.
Proof.
  unfold qgate_eqb. intros H. apply andb_prop in H as [H H3]. apply andb_prop in H as [H1 H2].
  apply Nat.eqb_eq in H1. apply list_nat_eqb_eq in H2. apply phase_eqb_eq in H3. auto.
Qed.

Lemma range_ok strict n q : q < n -> range_bad strict n q = false.
Proof. intros H. unfold range_bad. destruct strict; [apply Nat.leb_gt|apply Nat.ltb_ge]; lia. Qed.

Lemma qc_append_iff strict c g c' : qc_append strict c g = Ok c' <->
  Forall (fun q => range_bad strict (cn c) q = false) (qqs g) /\ gate_ok g /\
  c' = mkc (cn c) (cgates c ++ [g]).
Proof.
  unfold qc_append, gate_ok. rewrite <- existsb_false, <- nodupb_NoDup, <- Nat.eqb_eq.
  destruct (existsb _ _), (nodupb _), (_ =? _); cbn [negb]; split; try discriminate;
    try (intros [= <-]; auto); intros (A & (B & C) & D); try discriminate; now subst.
Qed.

Lemma qc_extend_ok strict : forall gl c c', qc_extend strict c gl = Ok c' ->
  c' = mkc (cn c) (cgates c ++ gl).
Proof.
  induction gl as [|g r IH]; intros c c'; cbn [qc_extend].
  - intros [= <-]. rewrite app_nil_r. now destruct c.
  - destruct (qc_append strict c g) as [c1|e] eqn:E; cbn [bind]; [|discriminate].
    intros H. apply qc_append_iff in E as (_ & _ & ->).
    apply IH in H as ->. cbn [cn cgates]. now rewrite <- app_assoc.
Qed.

(* a partial map that is total where P holds *)
Lemma map_opt_iff {A B} (g : A -> option B) (P : A -> Prop) (h : A -> B) :
  (forall x y, g x = Some y <-> P x /\ y = h x) ->
  forall l l', map_opt g l = Some l' <-> Forall P l /\ l' = map h l.
Proof.
  intros Hg. induction l as [|x l IH]; intros l'; cbn [map_opt map].
  - split; [intros [= <-]; auto|now intros [_ ->]].
  - destruct (g x) as [y|] eqn:E.
    + apply Hg in E as [Hx ->]. destruct (map_opt g l) as [r|].
      * destruct (proj1 (IH r) eq_refl) as [Hl ->]. split; [intros [= <-]; auto|now intros [_ ->]].
      * split; [discriminate|]. intros [H _]. inversion H as [|? ? _ Hl]; subst.
        discriminate (proj2 (IH _) (conj Hl eq_refl)).
    + split; [discriminate|]. intros [H _]. inversion H as [|? ? Hx _]; subst.
      rewrite (proj2 (Hg x _) (conj Hx eq_refl)) in E. discriminate E.
Qed.

Lemma option_map_iff {A B} (k : A -> B) (o : option A) (P : Prop) v :
  (forall a, o = Some a <-> P /\ a = v) ->
  forall b, match o with Some a => Some (k a) | None => None end = Some b <-> P /\ b = k v.
Proof.
  intros H b. destruct o as [a|].
  - destruct (proj1 (H a) eq_refl) as [HP ->]. split; [intros [= <-]; auto|now intros [_ ->]].
  - split; [discriminate|]. intros [HP _]. discriminate (proj2 (H v) (conj HP eq_refl)).
Qed.

(* remapping by a list qs is renaming by any f that reads qs, and succeeds exactly in its range *)
Lemma map_opt_remap qs (f : nat -> nat) : (forall i, i < length qs -> f i = nth i qs 0) ->
  forall l l', map_opt (remap qs) l = Some l' <-> in_range (length qs) l /\ l' = map (gmap f) l.
Proof.
  intros Hf. apply map_opt_iff. intros g. unfold remap, gmap.
  apply (option_map_iff (fun w => mkq (qobj g) (qkind g) w (qpar g))), map_opt_iff. intros x y. split.
  - intros E. assert (Hx : x < length qs) by (apply nth_error_Some; congruence).
    split; [exact Hx|]. rewrite (Hf x Hx). symmetry. now apply nth_error_nth.
  - intros [Hx ->]. rewrite (Hf x Hx). now apply nth_error_nth'.
Qed.

Lemma gmap_id l : map (gmap (fun x => x)) l = l.
Proof.
  rewrite <- (map_id l) at 2. apply map_ext. intros [i k qs p]. unfold gmap.
  cbn [qobj qkind qqs qpar]. now rewrite map_id.
Qed.

(* appending o with its qubits renamed by qs; f is any function that reads qs *)
Lemma qc_append_circuit_iff c o qs (f : nat -> nat) c' :
  (forall i, i < length qs -> f i = nth i qs 0) ->
  qc_append_circuit c o qs = Ok c' <->
  cn o <= cn c /\ length qs = cn o /\ in_range (cn o) (cgates o) /\
  c' = mkc (cn c) (cgates c ++ map (gmap f) (cgates o)).
Proof.
  intros Hf. unfold qc_append_circuit. pose proof (map_opt_remap qs f Hf (cgates o)) as H.
  destruct (Nat.ltb_spec (cn c) (cn o)); [split; [discriminate|lia]|].
  destruct (Nat.eqb_spec (length qs) (cn o)) as [Hl|Hl]; cbn [negb]; [|split; [discriminate|tauto]].
  rewrite Hl in H. destruct (map_opt _ _) as [og|].
  - destruct (proj1 (H og) eq_refl) as [Hr ->]. split; [intros [= <-]; auto|now intros (_ & _ & _ & ->)].
  - split; [discriminate|]. intros (_ & _ & Hr & _). discriminate (proj2 (H _) (conj Hr eq_refl)).
Qed.

Lemma qc_iadd_iff c o c' : qc_iadd c o = Ok c' <->
  cn o <= cn c /\ in_range (cn o) (cgates o) /\ c' = mkc (cn c) (cgates c ++ cgates o).
Proof.
  unfold qc_iadd. rewrite (qc_append_circuit_iff c o _ (fun x => x)), seq_length, gmap_id; [tauto|].
  intros i Hi. rewrite seq_length in Hi. now rewrite seq_nth.
Qed.

Lemma cp_row_inv q : forall rest d, map ginv (cp_row false q d rest) = cp_row true q d rest.
Proof. induction rest as [|r rest IH]; intros d; cbn [cp_row map ginv phase_neg negb]; [reflexivity|now rewrite IH]. Qed.

Lemma iqft_core_inv wl : iqft_core wl = map ginv (rev (qft_core wl)).
Proof.
  induction wl as [|q rest IH]; [reflexivity|].
  cbn [qft_core iqft_core]. rewrite rev_app_distr. cbn [rev]. rewrite !map_app, <- IH.
  rewrite map_rev, cp_row_inv. reflexivity.
Qed.

Lemma NoDup_1 (a : nat) : NoDup [a].
Proof. constructor; [intros []|constructor]. Qed.
Lemma NoDup_2 (a b : nat) : a <> b -> NoDup [a; b].
Proof. intros H. constructor; [intros [E|[]]; congruence|apply NoDup_1]. Qed.

Lemma cp_row_Forall (P : pgate -> Prop) neg q : forall rest d,
  (forall r k, In r rest -> P (KCP, [r; q], PhPi2 neg k)) -> Forall P (cp_row neg q d rest).
Proof.
  induction rest as [|r rest IH]; intros d H; cbn [cp_row]; constructor; [apply H; now left|].
  apply IH. intros r' k Hr. apply H. now right.
Qed.

(* what holds of H on a qubit of the list and of CP on two distinct ones holds of the gates of qft_core *)
Lemma qft_core_Forall (P : pgate -> Prop) wl : NoDup wl ->
  (forall q, In q wl -> P (K1 BH, [q], PhNone)) ->
  (forall r q k, In r wl -> In q wl -> r <> q -> P (KCP, [r; q], PhPi2 false k)) ->
  Forall P (qft_core wl).
Proof.
  induction 1 as [|q rest Hq Hnd IH]; intros HH HC; cbn [qft_core]; constructor; [apply HH; now left|].
  apply Forall_app. split.
  - apply cp_row_Forall. intros r k Hr. apply HC; [now right|now left|]. intros ->. contradiction.
  - apply IH; [intros q' Hq'; apply HH; now right|intros r q' k Hr Hq'; apply HC; now right].
Qed.

Lemma cp_row_in neg q : forall rest d r, In r rest -> exists k, In (KCP, [r; q], PhPi2 neg k) (cp_row neg q d rest).
Proof.
  induction rest as [|x rest IH]; intros d r Hr; [destruct Hr|]. destruct Hr as [<-|Hr]; cbn [cp_row].
  - eexists. now left.
  - destruct (IH (S d) r Hr) as [k Hk]. exists k. now right.
Qed.

(* the core holds a CP on [r; q] for every r after q, so a core of duplicate-free gates comes from a
   duplicate-free list: qft succeeds only on such a list *)
Lemma qft_core_nodup wl : Forall (fun g : pgate => NoDup (snd (fst g))) (qft_core wl) -> NoDup wl.
Proof.
  induction wl as [|q rest IH]; intros H; [constructor|]. cbn [qft_core] in H.
  inversion H as [|? ? _ H']; subst. apply Forall_app in H' as [Hrow Hrest]. constructor; [|exact (IH Hrest)].
  intros Hq. destruct (cp_row_in false q rest 0 q Hq) as [k Hk].
  rewrite Forall_forall in Hrow. specialize (Hrow _ Hk). cbn [fst snd] in Hrow.
  inversion Hrow as [|? ? Hn _]; subst. apply Hn. now left.
Qed.

(* the i-th swap exchanges positions i and n-1-i, the first in the lower half of the list *)
Lemma qft_swaps_in wl g : In g (qft_swaps wl) ->
  exists i, 2 * i + 2 <= length wl /\
            g = (K1 BSwap, [nth i wl 0; nth (length wl - i - 1) wl 0], PhNone).
Proof.
  unfold qft_swaps. intros H. apply in_map_iff in H as (i & <- & Hi). apply in_seq in Hi.
  exists i. split; [|reflexivity].
  pose proof (Nat.mul_div_le (length wl) 2). lia.
Qed.

(* the positions i, n-1-i, j, n-1-j of two swaps hold different qubits *)
Lemma mirror_nth_neq (wl : list nat) i j : NoDup wl -> 2 * i + 2 <= length wl -> 2 * j + 2 <= length wl ->
  nth i wl 0 <> nth (length wl - j - 1) wl 0 /\
  (i <> j -> nth i wl 0 <> nth j wl 0 /\
             nth (length wl - i - 1) wl 0 <> nth (length wl - j - 1) wl 0).
Proof.
  intros Hnd Hi Hj. pose proof (proj1 (NoDup_nth wl 0) Hnd) as H.
  assert (i < length wl /\ j < length wl /\ length wl - i - 1 < length wl /\
          length wl - j - 1 < length wl) as (B1 & B2 & B3 & B4) by lia.
  split; [|intros Hij; split]; intros E; apply H in E; try assumption; lia.
Qed.

Lemma number_sig : forall l fresh, map gsig (number fresh l) = l.
Proof.
  induction l as [|[[k qs] p] l IH]; intros fresh; cbn [number map]; [reflexivity|].
  rewrite IH. reflexivity.
Qed.

Definition pgate_ok (n : nat) (g : pgate) : Prop :=
  NoDup (snd (fst g)) /\ length (snd (fst g)) = arity (fst (fst g)) /\
  Forall (fun q => q < n) (snd (fst g)).

(* numbering well-formed gates from any fresh id gives entries that extend accepts *)
Lemma qc_extend_number strict : forall l fresh c, Forall (pgate_ok (cn c)) l ->
  qc_extend strict c (number fresh l) = Ok (mkc (cn c) (cgates c ++ number fresh l)).
Proof.
  induction l as [|[[k qs] p] l IH]; intros fresh c H; cbn [number qc_extend].
  - rewrite app_nil_r. now destruct c.
  - inversion H as [|? ? (A & B & C) Hr]; subst.
    rewrite (proj2 (qc_append_iff strict c (mkq fresh k qs p) _)
               (conj (Forall_impl _ (range_ok strict _) C) (conj (conj A B) eq_refl))).
    cbn [bind]. rewrite IH by exact Hr. cbn [cn cgates]. now rewrite <- app_assoc.
Qed.

Lemma qc_extend_nodup strict : forall l fresh c c', qc_extend strict c (number fresh l) = Ok c' ->
  Forall (fun g : pgate => NoDup (snd (fst g))) l.
Proof.
  induction l as [|[[k qs] p] l IH]; intros fresh c c' H; [constructor|].
  cbn [number qc_extend] in H. destruct (qc_append strict c (mkq fresh k qs p)) as [c1|e] eqn:E; [|discriminate].
  cbn [bind] in H. apply qc_append_iff in E as (_ & (Hnd & _) & _). constructor; [exact Hnd|exact (IH _ _ _ H)].
Qed.

Lemma pgate_ok_sub n wl k qs p : Forall (fun q => q < n) wl -> NoDup qs -> length qs = arity k ->
  incl qs wl -> pgate_ok n (k, qs, p).
Proof.
  intros Hr Hnd Hl Hi. split; [exact Hnd|]. split; [exact Hl|]. rewrite Forall_forall in *. auto.
Qed.

Lemma qft_gates_wf wl n : NoDup wl -> Forall (fun q => q < n) wl ->
  Forall (pgate_ok n) (qft_gates wl ++ iqft_gates wl).
Proof.
  intros Hnd Hr.
  assert (Hcore : Forall (pgate_ok n) (qft_core wl)).
  { apply qft_core_Forall; [exact Hnd|intros q Hq|intros r q k Hr' Hq Hrq];
      apply (pgate_ok_sub n wl); try reflexivity; trivial.
    - apply NoDup_1. - now intros x [<-|[]]. - now apply NoDup_2. - now intros x [<-|[<-|[]]]. }
  assert (Hsw : Forall (pgate_ok n) (qft_swaps wl)).
  { apply Forall_forall. intros g Hg. destruct (qft_swaps_in wl g Hg) as (i & Hi & ->).
    apply (pgate_ok_sub n wl); try reflexivity; trivial.
    - apply NoDup_2, (mirror_nth_neq wl i i); assumption.
    - intros x [<-|[<-|[]]]; apply nth_In; lia. }
  unfold qft_gates, iqft_gates. rewrite iqft_core_inv, !Forall_app, Forall_map.
  repeat split; trivial.
  (* an inverted gate has the kind and the qubits of the gate *)
  apply Forall_rev. revert Hcore. apply Forall_impl. now intros [[k qs] p].
Qed.

Lemma copy_sig off c : map gsig (cgates (qc_copy off c)) = map gsig (cgates c).
Proof. cbn [qc_copy cgates]. rewrite map_map. reflexivity. Qed.

Lemma copy_in_range off c n : in_range n (cgates c) -> in_range n (cgates (qc_copy off c)).
Proof. intros H. cbn [qc_copy cgates]. unfold in_range. rewrite Forall_map. exact H. Qed.

Lemma repeat_loop_succeeds : forall k i w o acc, cn o <= cn acc -> in_range (cn o) (cgates o) ->
  exists r, repeat_loop k i w o acc = Ok r.
Proof.
  induction k as [|k IH]; intros i w o acc Hn Hr; cbn [repeat_loop]; [now eexists|].
  rewrite (proj2 (qc_iadd_iff acc (qc_copy (w * i) o) _) (conj Hn (conj (copy_in_range _ _ _ Hr) eq_refl))).
  cbn [bind]. now apply IH.
Qed.

(* ri_loop drops one, two or three entries of the list at a step *)
Lemma list_ind3 {A} (P : list A -> Prop) :
  P [] -> (forall a, P [a]) -> (forall a b l, P l -> P (b :: l) -> P (tl l) -> P (a :: b :: l)) ->
  forall l, P l.
Proof.
  intros H0 H1 H2 l. enough (P (tl l) /\ P l /\ forall a, P (a :: l)) by tauto.
  induction l as [|b l (IH1 & IH2 & IH3)]; [auto|].
  split; [exact IH2|]. split; [apply IH3|]. intros a. now apply H2.
Qed.

Lemma ri_loop_cons2 selfinv guard a b l2 rres :
  ri_loop selfinv guard (a :: b :: l2) rres =
  if cancels selfinv a b then
    match pop_barrier guard rres with Err e => Err e | Ok r' => ri_loop selfinv guard l2 r' end
  else match l2 with
       | [] => ri_loop selfinv guard (b :: l2) (a :: rres)
       | c :: l3 =>
         if cancels selfinv a c && is_barrier b then
           match pop_barrier guard rres with Err e => Err e | Ok r' => ri_loop selfinv guard l3 r' end
         else ri_loop selfinv guard (b :: l2) (a :: rres)
       end.
Proof. destruct l2; reflexivity. Qed.

Lemma ri_loop_total selfinv l : forall rres, exists r, ri_loop selfinv true l rres = Ok r.
Proof.
  induction l as [|a|a b l2 IH2 IH1 IH3] using list_ind3; intros rres; [now eexists..|].
  rewrite ri_loop_cons2.
  assert (Hp : exists r', pop_barrier true rres = Ok r') by (destruct rres; now eexists).
  destruct Hp as [r' Hp].
  destruct (cancels selfinv a b); [rewrite Hp; apply IH2|].
  destruct l2 as [|c l3]; [apply IH1|].
  destruct (cancels selfinv a c && is_barrier b); [rewrite Hp; apply IH3|apply IH1].
Qed.

(* the exact guard: every pair the loop may cancel is one self-inverse,
   well-formed gate applied twice *)
Definition pairs_self_inverse (selfinv : bool) (l : list qgate) : Prop :=
  forall a b, In a l -> In b l -> cancels selfinv a b = true -> self_inv_kind (qkind a) = true.

(* with the test of fix cfe687c (selfinv = true) the guard holds by construction *)
Lemma pairs_self_inverse_true l : pairs_self_inverse true l.
Proof. intros a b _ _ H. unfold cancels in H. now apply andb_prop in H as [_ H]. Qed.

Section Unitary.
  Variable U : Type.
  Variable comp : U -> U -> U.          (* comp a b : a first, then b *)
  Variable uid : U.
  Variable den : gk -> list nat -> phase -> U.

  Definition useq (l : list U) : U := fold_right comp uid l.
  Definition gden (g : qgate) : U := den (qkind g) (qqs g) (qpar g).
  Definition cden (l : list qgate) : U := useq (map gden l).
  Definition pden (g : pgate) : U := den (fst (fst g)) (snd (fst g)) (snd g).
  Definition pcden (l : list pgate) : U := useq (map pden l).
  Fixpoint upow (n : nat) (u : U) : U := match n with 0 => uid | S n' => comp u (upow n' u) end.

  Lemma cden_cons g l : cden (g :: l) = comp (gden g) (cden l).
  Proof. reflexivity. Qed.

  Lemma pcden_cons g l : pcden (g :: l) = comp (pden g) (pcden l).
  Proof. reflexivity. Qed.

  Lemma cden_pcden l : cden l = pcden (map gsig l).
  Proof. unfold cden, pcden. rewrite map_map. reflexivity. Qed.

  Lemma cden_copy off c : cden (cgates (qc_copy off c)) = cden (cgates c).
  Proof. now rewrite !cden_pcden, copy_sig. Qed.

End Unitary.

Section Laws.
  Variable U : Type.
  Variable ueq : U -> U -> Prop.
  Variable comp : U -> U -> U.
  Variable uid : U.
  Variable den : gk -> list nat -> phase -> U.
  Variable ren : perm -> U -> U.

  Definition monoid_laws : Prop :=
    Equivalence ueq /\ Proper (ueq ==> ueq ==> ueq) comp /\
    (forall a b c, ueq (comp (comp a b) c) (comp a (comp b c))) /\
    (forall a, ueq (comp uid a) a) /\ (forall a, ueq (comp a uid) a).
  Definition rename_laws : Prop :=
    (forall p, ueq (ren p uid) uid) /\
    (forall p a b, ueq (ren p (comp a b)) (comp (ren p a) (ren p b))) /\
    (forall p k qs ph, ueq (den k (map (pf p) qs) ph) (ren p (den k qs ph))).
  Definition barrier_law : Prop := forall qs ph, ueq (den KBarrier qs ph) uid.
  Definition selfinv_law : Prop := forall k qs ph, self_inv_kind k = true ->
    NoDup qs -> length qs = arity k -> ueq (comp (den k qs ph) (den k qs ph)) uid.
  Definition cp_inv_law : Prop := forall a b ph, a <> b ->
    ueq (comp (den KCP [a; b] ph) (den KCP [a; b] (phase_neg ph))) uid.
  Definition swap_comm_law : Prop := forall a b c d, a <> c -> a <> d -> b <> c -> b <> d ->
    ueq (comp (den (K1 BSwap) [a; b] PhNone) (den (K1 BSwap) [c; d] PhNone))
        (comp (den (K1 BSwap) [c; d] PhNone) (den (K1 BSwap) [a; b] PhNone)).
End Laws.

Section Composition.
  Variable U : Type.
  Variable ueq : U -> U -> Prop.
  Variable comp : U -> U -> U.
  Variable uid : U.
  Variable den : gk -> list nat -> phase -> U.
  Variable ren : perm -> U -> U.
  Hypothesis HM : monoid_laws U ueq comp uid.
  Hypothesis HR : rename_laws U ueq comp uid den ren.
  Hypothesis HB : barrier_law U ueq uid den.
  Hypothesis HS : selfinv_law U ueq comp uid den.
  Hypothesis HC : cp_inv_law U ueq comp uid den.
  Hypothesis HW : swap_comm_law U ueq comp den.

  Infix "=~" := ueq (at level 70).
  Notation CD := (cden U comp uid den).
  Notation GD := (gden U den).
  Notation PD := (pden U den).
  Notation PCD := (pcden U comp uid den).

  Let ueq_equiv : Equivalence ueq := proj1 HM.
  Let comp_proper : Proper (ueq ==> ueq ==> ueq) comp := proj1 (proj2 HM).
  Let comp_assoc a b c : comp (comp a b) c =~ comp a (comp b c) := proj1 (proj2 (proj2 HM)) a b c.
  Let comp_id_l a : comp uid a =~ a := proj1 (proj2 (proj2 (proj2 HM))) a.
  Let comp_id_r a : comp a uid =~ a := proj2 (proj2 (proj2 (proj2 HM))) a.
  Local Existing Instance ueq_equiv.
  Local Existing Instance comp_proper.

  (* the denotation is a monoid homomorphism from lists *)
  Lemma pcden_app a b : PCD (a ++ b) =~ comp (PCD a) (PCD b).
  Proof using HM.
    induction a as [|x a IH]; cbn [app].
    - symmetry. apply comp_id_l.
    - rewrite !pcden_cons, IH. symmetry. apply comp_assoc.
  Qed.

  Lemma cden_app a b : CD (a ++ b) =~ comp (CD a) (CD b).
  Proof using HM. rewrite !cden_pcden, map_app. apply pcden_app. Qed.

  Lemma cden_snoc l g : CD (l ++ [g]) =~ comp (CD l) (GD g).
  Proof using HM. rewrite cden_app. apply comp_proper; [reflexivity|apply comp_id_r]. Qed.

  Lemma cden_gmap p l : CD (map (gmap (pf p)) l) =~ ren p (CD l).
  Proof using HM HR.
    destruct HR as (ren_id & ren_comp & den_ren). induction l as [|g l IH]; cbn [map].
    - symmetry. apply ren_id.
    - rewrite !cden_cons, ren_comp, IH. unfold gden, gmap. cbn [qkind qqs qpar].
      now rewrite den_ren.
  Qed.

  Lemma cden_app_gmap a p l : CD (a ++ map (gmap (pf p)) l) =~ comp (CD a) (ren p (CD l)).
  Proof using HM HR. now rewrite cden_app, cden_gmap. Qed.

  Lemma repeat_loop_den : forall k i w o acc r, repeat_loop k i w o acc = Ok r ->
    cn r = cn acc /\ CD (cgates r) =~ comp (CD (cgates acc)) (upow U comp uid k (CD (cgates o))).
  Proof using HM.
    induction k as [|k IH]; intros i w o acc r; cbn [repeat_loop upow].
    - intros H. injection H as <-. split; [reflexivity|]. symmetry. apply comp_id_r.
    - destruct (qc_iadd acc (qc_copy (w * i) o)) as [a|e] eqn:E; cbn [bind]; [|discriminate].
      intros H. apply IH in H as [Hn Hd]. apply qc_iadd_iff in E as (_ & _ & ->).
      split; [exact Hn|]. cbn [cgates] in Hd. rewrite Hd, cden_app, cden_copy. apply comp_assoc.
  Qed.

  Lemma barrier_den b : is_barrier b = true -> GD b =~ uid.
  Proof using HB. unfold gden, is_barrier. destruct (qkind b); try discriminate. intros _. apply HB. Qed.

  Lemma pop_barrier_den guard rres r' : pop_barrier guard rres = Ok r' ->
    CD (rev r') =~ CD (rev rres).
  Proof using HM HB.
    destruct rres as [|x rest]; cbn [pop_barrier].
    - destruct guard; [|discriminate]. intros H. now injection H as <-.
    - intros H. injection H as <-. destruct (is_barrier x) eqn:E; [|reflexivity].
      cbn [rev]. rewrite cden_snoc, (barrier_den x E). symmetry. apply comp_id_r.
  Qed.

  Lemma cden_cancel a b l : comp (GD a) (GD b) =~ uid -> CD (a :: b :: l) =~ CD l.
  Proof using HM. intros H. now rewrite !cden_cons, <- comp_assoc, H, comp_id_l. Qed.

  Lemma cden_barrier b l : is_barrier b = true -> CD (b :: l) =~ CD l.
  Proof using HM HB. intros H. now rewrite cden_cons, (barrier_den b H), comp_id_l. Qed.

  Lemma ri_loop_den selfinv guard l : forall rres r,
    (forall a b, In a l -> In b l -> cancels selfinv a b = true -> comp (GD a) (GD b) =~ uid) ->
    ri_loop selfinv guard l rres = Ok r ->
    CD r =~ comp (CD (rev rres)) (CD l).
  Proof using HM HB.
    induction l as [|a|a b l2 IH2 IH1 IH3] using list_ind3; intros rres r Hc.
    - intros H. injection H as <-. symmetry. apply comp_id_r.
    - intros H. injection H as <-. apply cden_app.
    - rewrite ri_loop_cons2.
      (* nothing cancels: a is pushed on the result *)
      assert (Hstep : ri_loop selfinv guard (b :: l2) (a :: rres) = Ok r ->
                CD r =~ comp (CD (rev rres)) (CD (a :: b :: l2))).
      { intros H. apply IH1 in H; [|intros x y Hx Hy; apply Hc; now right].
        rewrite H. cbn [rev]. now rewrite cden_snoc, comp_assoc. }
      destruct (cancels selfinv a b) eqn:Eab.
      + destruct (pop_barrier guard rres) as [r'|e] eqn:Ep; [|discriminate].
        intros H. apply IH2 in H; [|intros x y Hx Hy; apply Hc; right; now right].
        rewrite H, (pop_barrier_den _ _ _ Ep), (cden_cancel a b l2); [reflexivity|].
        apply Hc; [now left|right; now left|exact Eab].
      + destruct l2 as [|c l3]; [exact Hstep|].
        destruct (cancels selfinv a c && is_barrier b) eqn:Eac; [|exact Hstep].
        apply andb_prop in Eac as [Eac Eb].
        destruct (pop_barrier guard rres) as [r'|e] eqn:Ep; [|discriminate].
        intros H. apply IH3 in H; [|intros x y Hx Hy; apply Hc; right; right; now right].
        rewrite H, (pop_barrier_den _ _ _ Ep), (cden_cons _ _ _ _ a), (cden_barrier b _ Eb), <- cden_cons.
        rewrite (cden_cancel a c l3); [reflexivity|].
        apply Hc; [now left|right; right; now left|exact Eac].
  Qed.

  Lemma cancels_den selfinv l : ids_consistent l -> Forall gate_ok l -> pairs_self_inverse selfinv l ->
    forall a b, In a l -> In b l -> cancels selfinv a b = true -> comp (GD a) (GD b) =~ uid.
  Proof using HS.
    intros Hid Hok Hp a b Ha Hb Hc. pose proof (Hp a b Ha Hb Hc) as Hs.
    unfold cancels in Hc. apply andb_prop in Hc as [Hc _]. apply qgate_eqb_spec in Hc as (Ho & Hq & Hpar).
    pose proof (Hid a b Ha Hb Ho) as Hk. unfold gden. rewrite <- Hk, <- Hq, <- Hpar.
    rewrite Forall_forall in Hok. destruct (Hok a Ha) as [Hnd Har]. now apply HS.
  Qed.

  Theorem L_remove_identities selfinv guard c c' :
    ids_consistent (cgates c) -> Forall gate_ok (cgates c) ->
    pairs_self_inverse selfinv (cgates c) -> remove_identities selfinv guard c = Ok c' ->
    cn c' = cn c /\ CD (cgates c') =~ CD (cgates c).
  Proof using HM HB HS.
    intros Hid Hok Hp. unfold remove_identities.
    destruct (ri_loop selfinv guard (cgates c) []) as [r|e] eqn:E; [|discriminate].
    intros H. injection H as <-. cbn [cn cgates]. split; [reflexivity|].
    apply ri_loop_den in E; [|now apply cancels_den]. rewrite E. apply comp_id_l.
  Qed.

  (* l ; m ; l^-1 reversed is the identity when m is *)
  Lemma inv_sandwich l m : Forall (fun g => comp (PD g) (PD (ginv g)) =~ uid) l ->
    PCD m =~ uid -> PCD (l ++ m ++ map ginv (rev l)) =~ uid.
  Proof using HM.
    intros Hl Hm. induction Hl as [|g l Hg _ IH].
    - cbn [rev map app]. now rewrite app_nil_r.
    - cbn [rev app]. rewrite map_app, !app_assoc, pcden_cons, pcden_app, <- app_assoc, IH.
      cbn [map]. now rewrite comp_id_l, pcden_cons, comp_id_r.
  Qed.

  Lemma commute_seq s : forall r, (forall g, In g r -> comp (PD s) (PD g) =~ comp (PD g) (PD s)) ->
    comp (PD s) (PCD r) =~ comp (PCD r) (PD s).
  Proof using HM.
    induction r as [|g r IH]; intros H.
    - change (PCD []) with uid. now rewrite comp_id_l, comp_id_r.
    - rewrite pcden_cons, <- comp_assoc, (H g) by now left.
      rewrite comp_assoc, IH, comp_assoc; [reflexivity|]. intros x Hx. apply H. now right.
  Qed.

  (* pairwise commuting involutions, applied twice in the same order *)
  Lemma double_cancel : forall l, (forall g, In g l -> comp (PD g) (PD g) =~ uid) ->
    (forall a b, In a l -> In b l -> comp (PD a) (PD b) =~ comp (PD b) (PD a)) ->
    PCD (l ++ l) =~ uid.
  Proof using HM.
    induction l as [|s r IH]; intros Hs Hc; [reflexivity|].
    cbn [app]. rewrite pcden_cons, pcden_app, pcden_cons.
    rewrite <- (comp_assoc (PCD r)), <- commute_seq.
    - rewrite (comp_assoc (PD s) (PCD r)), <- comp_assoc, Hs by now left.
      rewrite comp_id_l, <- pcden_app. apply IH.
      + intros g Hg. apply Hs. now right.
      + intros a b Ha Hb. apply Hc; now right.
    - intros g Hg. apply Hc; [now left|now right].
  Qed.

  Lemma swaps_cancel wl : NoDup wl -> PCD (qft_swaps wl ++ qft_swaps wl) =~ uid.
  Proof using HM HS HW.
    intros Hnd. apply double_cancel.
    - intros g Hg. destruct (qft_swaps_in wl g Hg) as (i & Hi & ->).
      apply HS; [reflexivity| |reflexivity]. now apply NoDup_2, (mirror_nth_neq wl i i).
    - intros a b Ha Hb. destruct (qft_swaps_in wl a Ha) as (i & Hi & ->).
      destruct (qft_swaps_in wl b Hb) as (j & Hj & ->).
      destruct (Nat.eq_dec i j) as [->|Hij]; [reflexivity|].
      destruct (mirror_nth_neq wl i j Hnd Hi Hj) as [H1 H2]. destruct (H2 Hij) as [H3 H4].
      destruct (mirror_nth_neq wl j i Hnd Hj Hi) as [H5 _]. apply HW; auto.
  Qed.

  Theorem qft_iqft_gates wl : NoDup wl -> PCD (qft_gates wl ++ iqft_gates wl) =~ uid.
  Proof using HM HS HC HW.
    intros Hnd. unfold qft_gates, iqft_gates. rewrite iqft_core_inv.
    rewrite <- app_assoc, (app_assoc (qft_swaps wl)).
    apply inv_sandwich; [|now apply swaps_cancel].
    apply qft_core_Forall; [exact Hnd|intros q _|intros r q k _ _ Hrq].
    - apply HS; [reflexivity|apply NoDup_1|reflexivity].
    - now apply HC.
  Qed.

  Theorem L_iqft_inverts_qft strict c f1 f2 wl c1 c2 :
    qc_qft strict c f1 wl = Ok c1 -> qc_iqft strict c1 f2 wl = Ok c2 ->
    cn c2 = cn c /\ CD (cgates c2) =~ CD (cgates c).
  Proof using HM HS HC HW.
    unfold qc_qft, qc_iqft. intros H1 H2.
    assert (Hnd : NoDup wl).
    { pose proof (qc_extend_nodup _ _ _ _ _ H1) as F. unfold qft_gates in F. apply Forall_app in F as [F _].
      exact (qft_core_nodup wl F). }
    apply qc_extend_ok in H1 as ->. apply qc_extend_ok in H2 as ->. cbn [cn cgates].
    split; [reflexivity|]. rewrite <- app_assoc, cden_app, cden_app, !cden_pcden, !number_sig, <- pcden_app.
    rewrite (qft_iqft_gates wl Hnd). apply comp_id_r.
  Qed.
End Composition.

(* every duplicate-free qubit list extends to a permutation of the qubit indices, so the
   renaming theorem is never vacuous *)
Definition transp (a b x : nat) : nat := if x =? a then b else if x =? b then a else x.

Lemma transp_invol a b x : transp a b (transp a b x) = x.
Proof.
  unfold transp.
  destruct (Nat.eqb_spec x a) as [->|Hxa].
  - destruct (Nat.eqb_spec b a) as [->|Hba]; [reflexivity|]. now rewrite Nat.eqb_refl.
  - destruct (Nat.eqb_spec x b) as [->|Hxb].
    + now rewrite Nat.eqb_refl.
    + destruct (Nat.eqb_spec x a); [contradiction|]. destruct (Nat.eqb_spec x b); [contradiction|reflexivity].
Qed.

Definition ptransp (a b : nat) : perm :=
  mkperm (transp a b) (transp a b) (transp_invol a b) (transp_invol a b).

Definition pid : perm := mkperm (fun x => x) (fun x => x) (fun _ => eq_refl) (fun _ => eq_refl).

Lemma pcomp_l (p q : perm) x : pinv q (pinv p (pf p (pf q x))) = x.
Proof. now rewrite !pinv_pf. Qed.
Lemma pcomp_r (p q : perm) x : pf p (pf q (pinv q (pinv p x))) = x.
Proof. now rewrite !pf_pinv. Qed.
Definition pcomp (p q : perm) : perm :=
  mkperm (fun x => pf p (pf q x)) (fun x => pinv q (pinv p x)) (pcomp_l p q) (pcomp_r p q).

(* by induction from the right: p extends r, and exchanging a with the image of the next index
   makes it extend r ++ [a] *)
Theorem extend_exists qs : NoDup qs -> exists p, extends p qs.
Proof.
  induction qs as [|a r IH] using rev_ind; intros Hnd; [exists pid; intros i Hi; inversion Hi|].
  apply NoDup_remove in Hnd as [Hr Ha]. rewrite app_nil_r in Hr, Ha. destruct (IH Hr) as [p Hp].
  exists (pcomp (ptransp a (pf p (length r))) p). intros i Hi.
  rewrite app_length in Hi. cbn [length] in Hi. cbn [pcomp pf ptransp]. unfold transp.
  destruct (Nat.eq_dec i (length r)) as [->|Hin].
  - rewrite nth_middle. destruct (Nat.eqb_spec (pf p (length r)) a) as [E|_]; [exact E|].
    now rewrite Nat.eqb_refl.
  - assert (Hlt : i < length r) by lia. rewrite app_nth1, <- (Hp i Hlt) by exact Hlt.
    destruct (Nat.eqb_spec (pf p i) a) as [E|_].
    + exfalso. apply Ha. rewrite <- E, (Hp i Hlt). now apply nth_In.
    + destruct (Nat.eqb_spec (pf p i) (pf p (length r))) as [E|_]; [|reflexivity].
      exfalso. apply Hin. rewrite <- (pinv_pf p i), E. apply pinv_pf.
Qed.

Lemma extends_NoDup p qs : extends p qs -> NoDup qs.
Proof.
  intros H. apply (NoDup_nth qs 0). intros i j Hi Hj E.
  rewrite <- (H i Hi), <- (H j Hj) in E.
  rewrite <- (pinv_pf p i), <- (pinv_pf p j). now rewrite E.
Qed.

(* An instance with the laws proved: the exact semantics of the gates that map a basis state
   to a basis state times a phase.  A state is (bits, phase); a phase (t, r) stands for
   e^{i(2 pi t + r)} with t, r rational: t collects the multiples of 2 pi (Z = 1/2, S = 1/4,
   T = 1/8, 2 pi/2^k = 1/2^k), r the float parameters in radians.  Since pi is irrational, two
   such phases are equal iff the r are equal and the t differ by an integer, which is [ph_eq].
   H is not of this form: this instance reads it as the identity (which satisfies the law
   H;H = id).  The bit part of X/CX/CCX/MCX is the fflip of Circ.v.  Nothing above depends on
   what follows. *)

Definition bits := nat -> bool.
Definition beq (s s' : bits) : Prop := forall q, s q = s' q.

Definition ph := (Q * Q)%type.
Definition ph0 : ph := (0, 0)%Q.
Definition ph_add (a b : ph) : ph := (fst a + fst b, snd a + snd b)%Q.
Definition ph_eq (a b : ph) : Prop :=
  (exists m : Z, fst a - fst b == inject_Z m)%Q /\ (snd a == snd b)%Q.

Lemma ph_eq_refl a : ph_eq a a.
Proof. split; [exists 0%Z; change (inject_Z 0) with 0%Q; lra|reflexivity]. Qed.
Lemma ph_eq_sym a b : ph_eq a b -> ph_eq b a.
Proof.
  intros [[m Hm] Hr]. split; [|now symmetry]. exists (- m)%Z. rewrite inject_Z_opp. lra.
Qed.
Lemma ph_eq_trans a b c : ph_eq a b -> ph_eq b c -> ph_eq a c.
Proof.
  intros [[m Hm] Hr] [[m' Hm'] Hr']. split; [|now rewrite Hr].
  exists (m + m')%Z. rewrite inject_Z_plus. lra.
Qed.
Lemma ph_add_proper a a' b b' : ph_eq a a' -> ph_eq b b' -> ph_eq (ph_add a b) (ph_add a' b').
Proof.
  intros [[m Hm] Hr] [[m' Hm'] Hr']. unfold ph_eq, ph_add. cbn [fst snd]. split; [|lra].
  exists (m + m')%Z. rewrite inject_Z_plus. lra.
Qed.
Lemma ph_eq_Qeq (a b : ph) : (fst a == fst b)%Q -> (snd a == snd b)%Q -> ph_eq a b.
Proof. intros H1 H2. split; [exists 0%Z; change (inject_Z 0) with 0%Q; lra|exact H2]. Qed.

Lemma ph_add_assoc a b c : ph_eq (ph_add (ph_add a b) c) (ph_add a (ph_add b c)).
Proof. apply ph_eq_Qeq; cbn [ph_add fst snd]; ring. Qed.
Lemma ph_add_0_l a : ph_eq (ph_add ph0 a) a.
Proof. apply ph_eq_Qeq; cbn [ph_add ph0 fst snd]; ring. Qed.
Lemma ph_add_0_r a : ph_eq (ph_add a ph0) a.
Proof. apply ph_eq_Qeq; cbn [ph_add ph0 fst snd]; ring. Qed.

Record mono := mkmono {
  mperm : bits -> bits;
  mph : bits -> ph;
  mperm_ext : forall s s', beq s s' -> beq (mperm s) (mperm s');
  mph_ext : forall s s', beq s s' -> ph_eq (mph s) (mph s') }.

Definition mueq (u v : mono) : Prop :=
  forall s, beq (mperm u s) (mperm v s) /\ ph_eq (mph u s) (mph v s).

Lemma mueq_equiv : Equivalence mueq.
Proof.
  split.
  - intros u s. split; [intros q; reflexivity|apply ph_eq_refl].
  - intros u v H s. destruct (H s) as [H1 H2]. split; [intros q; now rewrite H1|now apply ph_eq_sym].
  - intros u v w H H' s. destruct (H s) as [H1 H2], (H' s) as [H3 H4].
    split; [intros q; now rewrite H1|eapply ph_eq_trans; eassumption].
Qed.

Lemma mcomp_ext1 (u v : mono) s s' : beq s s' -> beq (mperm v (mperm u s)) (mperm v (mperm u s')).
Proof. intros H. apply mperm_ext. now apply mperm_ext. Qed.
Lemma mcomp_ext2 (u v : mono) s s' : beq s s' ->
  ph_eq (ph_add (mph u s) (mph v (mperm u s))) (ph_add (mph u s') (mph v (mperm u s'))).
Proof. intros H. apply ph_add_proper; [now apply mph_ext|]. apply mph_ext. now apply mperm_ext. Qed.
Definition mcomp (u v : mono) : mono :=
  mkmono (fun s => mperm v (mperm u s)) (fun s => ph_add (mph u s) (mph v (mperm u s)))
         (mcomp_ext1 u v) (mcomp_ext2 u v).

Definition mid : mono :=
  mkmono (fun s => s) (fun _ => ph0) (fun s s' H => H) (fun s s' _ => ph_eq_refl ph0).

Lemma mcomp_proper : Proper (mueq ==> mueq ==> mueq) mcomp.
Proof.
  intros u u' Hu v v' Hv s. destruct (Hu s) as [H1 H2]. cbn [mcomp mperm mph]. split.
  - intros q. rewrite (mperm_ext v _ _ H1 q). apply (proj1 (Hv _)).
  - apply ph_add_proper; [exact H2|].
    eapply ph_eq_trans; [apply (mph_ext v _ _ H1)|apply (proj2 (Hv _))].
Qed.

Lemma mcomp_assoc a b c : mueq (mcomp (mcomp a b) c) (mcomp a (mcomp b c)).
Proof. intros s. cbn [mcomp mperm mph]. split; [intros q; reflexivity|apply ph_add_assoc]. Qed.
Lemma mcomp_id_l a : mueq (mcomp mid a) a.
Proof. intros s. cbn [mcomp mid mperm mph]. split; [intros q; reflexivity|apply ph_add_0_l]. Qed.
Lemma mcomp_id_r a : mueq (mcomp a mid) a.
Proof. intros s. cbn [mcomp mid mperm mph]. split; [intros q; reflexivity|apply ph_add_0_r]. Qed.

Definition flipb (s : bits) (t : nat) : bits := fun q => if q =? t then negb (s t) else s q.
Definition swapb (s : bits) (a b : nat) : bits :=
  fun q => if q =? a then s b else if q =? b then s a else s q.

Lemma flipb_same s t : flipb s t t = negb (s t).
Proof. unfold flipb. now rewrite Nat.eqb_refl. Qed.
Lemma flipb_other s t q : q <> t -> flipb s t q = s q.
Proof. intros H. unfold flipb. now rewrite (proj2 (Nat.eqb_neq q t) H). Qed.
Lemma swapb_l s a b : swapb s a b a = s b.
Proof. unfold swapb. now rewrite Nat.eqb_refl. Qed.
Lemma swapb_r s a b : swapb s a b b = s a.
Proof. unfold swapb. rewrite Nat.eqb_refl. now destruct (Nat.eqb_spec b a) as [->|_]. Qed.
Lemma swapb_other s a b q : q <> a -> q <> b -> swapb s a b q = s q.
Proof.
  intros Ha Hb. unfold swapb. now rewrite (proj2 (Nat.eqb_neq q a) Ha), (proj2 (Nat.eqb_neq q b) Hb).
Qed.

Definition base_perm (b : base) (ts : list nat) (s : bits) : bits :=
  match b, ts with
  | BX, [t] => flipb s t
  | BY, [t] => flipb s t
  | BSwap, [a; c] => swapb s a c
  | _, _ => s
  end.

Definition phase_val (p : phase) : ph :=
  match p with
  | PhNone => ph0
  | PhRat z n => match n with N0 => ph0 | Npos d => (0, z # d)%Q end
  | PhPi2 neg k => ((if neg then (-1)%Z else 1%Z) # Pos.shiftl_nat 1 k, 0)%Q
  end.

Definition onbit (s : bits) (t : nat) (v : ph) : ph := if s t then v else ph0.

Definition base_ph (b : base) (ts : list nat) (par : phase) (s : bits) : ph :=
  match b, ts with
  | BZ, [t] => onbit s t (1 # 2, 0)%Q
  | BS, [t] => onbit s t (1 # 4, 0)%Q
  | BT, [t] => onbit s t (1 # 8, 0)%Q
  | BP, [t] => onbit s t (phase_val par)
  | BY, [t] => if s t then (3 # 4, 0)%Q else (1 # 4, 0)%Q
  | _, _ => ph0
  end.

(* (number of controls, controlled base gate) of each gate class *)
Definition decode (k : gk) : nat * base :=
  match k with
  | K1 b => (0, b)
  | KCX => (1, BX) | KCZ => (1, BZ) | KCP => (1, BP) | KCCX => (2, BX)
  | KMCX n => (n, BX)
  | KMCtrl b n => (n, b)
  | KBarrier | KNop => (0, BI)
  end.

Definition act_perm (cs : list nat) (b : base) (ts : list nat) (s : bits) : bits :=
  if forallb s cs then base_perm b ts s else s.
Definition act_ph (cs : list nat) (b : base) (ts : list nat) (par : phase) (s : bits) : ph :=
  if forallb s cs then base_ph b ts par s else ph0.

Lemma base_perm_ext b ts s s' : beq s s' -> beq (base_perm b ts s) (base_perm b ts s').
Proof.
  intros H q. destruct b; destruct ts as [|t [|u [|v r]]]; cbn [base_perm]; try apply H;
    unfold flipb, swapb; now rewrite !H.
Qed.
Lemma base_ph_ext b ts par s s' : beq s s' -> base_ph b ts par s = base_ph b ts par s'.
Proof.
  intros H. destruct b; destruct ts as [|t [|u [|v r]]]; cbn [base_ph]; try reflexivity;
    unfold onbit; now rewrite H.
Qed.
Lemma act_perm_ext cs b ts s s' : beq s s' -> beq (act_perm cs b ts s) (act_perm cs b ts s').
Proof.
  intros H. unfold act_perm. rewrite (forallb_ext_in s s' cs (fun x _ => H x)).
  destruct (forallb s' cs); [now apply base_perm_ext|exact H].
Qed.
Lemma act_ph_ext cs b ts par s s' : beq s s' -> ph_eq (act_ph cs b ts par s) (act_ph cs b ts par s').
Proof.
  intros H. unfold act_ph. rewrite (forallb_ext_in s s' cs (fun x _ => H x)), (base_ph_ext b ts par s s' H).
  apply ph_eq_refl.
Qed.

Definition mact (cs : list nat) (b : base) (ts : list nat) (par : phase) : mono :=
  mkmono (act_perm cs b ts) (act_ph cs b ts par) (act_perm_ext cs b ts) (act_ph_ext cs b ts par).

Definition mden (k : gk) (qs : list nat) (par : phase) : mono :=
  mact (firstn (fst (decode k)) qs) (snd (decode k)) (skipn (fst (decode k)) qs) par.

Definition pull (p : perm) (s : bits) : bits := fun i => s (pf p i).
Definition push (p : perm) (s : bits) : bits := fun q => s (pinv p q).

Lemma pull_ext p s s' : beq s s' -> beq (pull p s) (pull p s').
Proof. intros H q. apply H. Qed.
Lemma push_ext p s s' : beq s s' -> beq (push p s) (push p s').
Proof. intros H q. apply H. Qed.
Lemma pull_push p s : beq (pull p (push p s)) s.
Proof. intros q. unfold pull, push. now rewrite pinv_pf. Qed.
Lemma push_pull p s : beq (push p (pull p s)) s.
Proof. intros q. unfold pull, push. now rewrite pf_pinv. Qed.

Lemma mren_ext1 p (u : mono) s s' : beq s s' ->
  beq (push p (mperm u (pull p s))) (push p (mperm u (pull p s'))).
Proof. intros H. apply push_ext, mperm_ext, pull_ext, H. Qed.
Lemma mren_ext2 p (u : mono) s s' : beq s s' -> ph_eq (mph u (pull p s)) (mph u (pull p s')).
Proof. intros H. apply mph_ext, pull_ext, H. Qed.
Definition mren (p : perm) (u : mono) : mono :=
  mkmono (fun s => push p (mperm u (pull p s))) (fun s => mph u (pull p s))
         (mren_ext1 p u) (mren_ext2 p u).

Lemma mren_proper p : Proper (mueq ==> mueq) (mren p).
Proof.
  intros u v H s. destruct (H (pull p s)) as [H1 H2]. cbn [mren mperm mph].
  split; [now apply push_ext|exact H2].
Qed.
Lemma mren_id p : mueq (mren p mid) mid.
Proof. intros s. cbn [mren mid mperm mph]. split; [apply push_pull|apply ph_eq_refl]. Qed.
Lemma mren_comp p a b : mueq (mren p (mcomp a b)) (mcomp (mren p a) (mren p b)).
Proof.
  intros s. cbn [mren mcomp mperm mph]. split.
  - apply push_ext, mperm_ext. intros q. symmetry. apply pull_push.
  - apply ph_add_proper; [apply ph_eq_refl|]. apply mph_ext. intros q. symmetry. apply pull_push.
Qed.

Lemma forallb_map_pull p s cs : forallb s (map (pf p) cs) = forallb (pull p s) cs.
Proof. induction cs as [|c cs IH]; cbn [map forallb]; [reflexivity|now rewrite IH]. Qed.

Lemma eqb_perm p q t : (q =? pf p t) = (pinv p q =? t).
Proof.
  destruct (Nat.eqb_spec q (pf p t)) as [->|H].
  - now rewrite pinv_pf, Nat.eqb_refl.
  - symmetry. apply Nat.eqb_neq. intros <-. apply H. now rewrite pf_pinv.
Qed.

Lemma base_perm_ren p b ts s :
  beq (base_perm b (map (pf p) ts) s) (push p (base_perm b ts (pull p s))).
Proof.
  intros q. destruct b; destruct ts as [|t [|u [|v r]]]; cbn [base_perm map]; unfold push, pull;
    try (now rewrite pf_pinv); unfold flipb, swapb; rewrite !eqb_perm;
    repeat (destruct (_ =? _)); try reflexivity; now rewrite pf_pinv.
Qed.
Lemma base_ph_ren p b ts par s : base_ph b (map (pf p) ts) par s = base_ph b ts par (pull p s).
Proof. destruct b; destruct ts as [|t [|u [|v r]]]; reflexivity. Qed.

Lemma mden_ren p k qs par : mueq (mden k (map (pf p) qs) par) (mren p (mden k qs par)).
Proof.
  intros s. unfold mden. rewrite firstn_map, skipn_map. cbn [mren mact mperm mph].
  unfold act_perm, act_ph. rewrite forallb_map_pull.
  destruct (forallb (pull p s) _).
  - split; [apply base_perm_ren|rewrite base_ph_ren; apply ph_eq_refl].
  - split; [|apply ph_eq_refl]. intros q. symmetry. apply push_pull.
Qed.

Lemma mden_barrier qs par : mueq (mden KBarrier qs par) mid.
Proof. intros s. split; [intros q; reflexivity|apply ph_eq_refl]. Qed.

Lemma base_perm_other b ts s q : ~ In q ts -> base_perm b ts s q = s q.
Proof.
  intros H. destruct b; destruct ts as [|t [|u [|v r]]]; cbn [base_perm]; try reflexivity.
  1-2: apply flipb_other; intros ->; apply H; now left.
  apply swapb_other; intros ->; apply H; cbn [In]; auto.
Qed.

Lemma NoDup_app_disjoint (a b : list nat) : NoDup (a ++ b) -> forall x, In x a -> ~ In x b.
Proof.
  induction a as [|x a IH]; cbn [app]; intros H; [intros x []|].
  inversion H as [|? ? Hx Hr]; subst.
  intros y [<-|Hy]; [|now apply IH]. intros Hin. apply Hx, in_or_app. now right.
Qed.

Lemma base_perm_invol b ts s : beq (base_perm b ts (base_perm b ts s)) s.
Proof.
  intros q. destruct b; destruct ts as [|t [|u [|v r]]]; cbn [base_perm]; try reflexivity.
  1-2: destruct (Nat.eq_dec q t) as [->|Hq];
    [now rewrite !flipb_same, negb_involutive|now rewrite !flipb_other].
  destruct (Nat.eq_dec q t) as [->|Ht]; [now rewrite swapb_l, swapb_r|].
  destruct (Nat.eq_dec q u) as [->|Hu]; [now rewrite swapb_r, swapb_l|now rewrite !swapb_other].
Qed.

Lemma ph_eq_int (a : ph) m : (fst a == inject_Z m)%Q -> (snd a == 0)%Q -> ph_eq a ph0.
Proof. intros H1 H2. split; [exists m; cbn; lra|exact H2]. Qed.

(* only Y and Z have a phase: 1/4 and 3/4 of a turn on |0> and |1> for Y (which flips the bit),
   1/2 turn on |1> for Z *)
Lemma base_ph_double b ts par s : base_selfinv b = true ->
  ph_eq (ph_add (base_ph b ts par s) (base_ph b ts par (base_perm b ts s))) ph0.
Proof.
  intros Hb. destruct b; try discriminate Hb; cbn [base_ph]; try exact (ph_add_0_l ph0).
  - destruct ts as [|t [|u ts]]; try exact (ph_add_0_l ph0).
    cbn [base_perm]. unfold flipb. rewrite Nat.eqb_refl.
    destruct (s t); apply (ph_eq_int _ 1); exact eq_refl.
  - destruct ts as [|t [|u ts]]; try exact (ph_add_0_l ph0).
    cbn [base_perm]. unfold onbit.
    destruct (s t); [apply (ph_eq_int _ 1); exact eq_refl|exact (ph_add_0_l ph0)].
Qed.

Lemma act_selfinv cs b ts par : base_selfinv b = true -> (forall c, In c cs -> ~ In c ts) ->
  mueq (mcomp (mact cs b ts par) (mact cs b ts par)) mid.
Proof.
  intros Hb Hd s. cbn [mcomp mact mid mperm mph]. unfold act_perm, act_ph.
  destruct (forallb s cs) eqn:Ec.
  - (* the gate does not touch its controls: it fires the second time as well *)
    assert (Ec' : forallb (base_perm b ts s) cs = true).
    { rewrite <- Ec. apply forallb_ext_in. intros c Hc. apply base_perm_other. now apply Hd. }
    rewrite Ec'. split; [apply base_perm_invol|now apply base_ph_double].
  - rewrite Ec. split; [intros q; reflexivity|apply ph_add_0_l].
Qed.

Lemma selfinv_decode k : self_inv_kind k = true -> base_selfinv (snd (decode k)) = true.
Proof. destruct k as [b| | | | |n|b n| |]; cbn; try discriminate; auto. Qed.

(* the shape of selfinv_law; this instance does not need the arity *)
Lemma mden_selfinv k qs par : self_inv_kind k = true -> NoDup qs -> length qs = arity k ->
  mueq (mcomp (mden k qs par) (mden k qs par)) mid.
Proof.
  intros Hk Hnd _. unfold mden. rewrite <- (firstn_skipn (fst (decode k)) qs) in Hnd.
  apply act_selfinv; [now apply selfinv_decode|now apply NoDup_app_disjoint].
Qed.

Definition ph_opp (a : ph) : ph := (- fst a, - snd a)%Q.

Lemma ph_add_opp a : ph_eq (ph_add a (ph_opp a)) ph0.
Proof. apply ph_eq_Qeq; cbn [ph_add ph_opp ph0 fst snd]; ring. Qed.

Lemma phase_val_neg p : ph_eq (ph_add (phase_val p) (phase_val (phase_neg p))) ph0.
Proof.
  replace (phase_val (phase_neg p)) with (ph_opp (phase_val p)); [apply ph_add_opp|].
  destruct p as [|z [|d]|[] k]; reflexivity.
Qed.

(* the shape of cp_inv_law; this instance does not need a <> b *)
Lemma mden_cp_inv a b par : a <> b ->
  mueq (mcomp (mden KCP [a; b] par) (mden KCP [a; b] (phase_neg par))) mid.
Proof.
  intros _ s. cbn.
  assert (Hid : forall s0, act_perm [a] BP [b] s0 = s0).
  { intros s0. unfold act_perm. cbn [base_perm]. now destruct (forallb s0 [a]). }
  rewrite !Hid. split; [intros q; reflexivity|].
  unfold act_ph. destruct (forallb s [a]); [|apply ph_add_0_l].
  cbn [base_ph]. unfold onbit. destruct (s b); [apply phase_val_neg|apply ph_add_0_l].
Qed.

Lemma mden_swap_comm a b c d : a <> c -> a <> d -> b <> c -> b <> d ->
  mueq (mcomp (mden (K1 BSwap) [a; b] PhNone) (mden (K1 BSwap) [c; d] PhNone))
       (mcomp (mden (K1 BSwap) [c; d] PhNone) (mden (K1 BSwap) [a; b] PhNone)).
Proof.
  intros Hac Had Hbc Hbd s. cbn. unfold act_perm, act_ph. cbn [forallb base_perm base_ph].
  split; [|apply ph_eq_refl]. intros q.
  destruct (Nat.eq_dec q a) as [->|Ha].
  { now rewrite (swapb_other _ c d a), !swapb_l, (swapb_other _ c d b) by assumption. }
  destruct (Nat.eq_dec q b) as [->|Hb].
  { now rewrite (swapb_other _ c d b), !swapb_r, (swapb_other _ c d a) by assumption. }
  destruct (Nat.eq_dec q c) as [->|Hc].
  { now rewrite (swapb_other _ a b c), !swapb_l, (swapb_other _ a b d) by congruence. }
  destruct (Nat.eq_dec q d) as [->|Hd].
  { now rewrite (swapb_other _ a b d), !swapb_r, (swapb_other _ a b c) by congruence. }
  now rewrite !swapb_other.
Qed.

Theorem mono_monoid : monoid_laws mono mueq mcomp mid.
Proof.
  split; [exact mueq_equiv|]. split; [exact mcomp_proper|]. split; [exact mcomp_assoc|].
  split; [exact mcomp_id_l|exact mcomp_id_r].
Qed.
Definition mcden : list qgate -> mono := cden mono mcomp mid mden.

Lemma split_last (qs : list nat) n : length qs = S n ->
  firstn n qs = removelast qs /\ skipn n qs = [last qs 0].
Proof.
  intros H. assert (Hne : qs <> []) by (intros ->; discriminate).
  pose proof (app_removelast_last 0 Hne) as E.
  assert (Hl : length (removelast qs) = n).
  { rewrite E in H at 1. rewrite app_length in H. cbn in H. lia. }
  split.
  - rewrite E at 1. rewrite <- Hl. rewrite firstn_app, Nat.sub_diag, firstn_all. cbn. apply app_nil_r.
  - rewrite E at 1. rewrite <- Hl. rewrite skipn_app, Nat.sub_diag, skipn_all. reflexivity.
Qed.

(* X with nc controls: the last qubit is flipped when all the others are set *)
Lemma cx_agrees_fflip k qs p f nc : decode k = (nc, BX) -> length qs = S nc ->
  beq (mperm (mden k qs p) f) (fflip f (removelast qs) (last qs 0)).
Proof.
  intros Hd Hl. destruct (split_last qs nc Hl) as [Ef Es]. unfold mden. rewrite Hd. cbn [fst snd].
  rewrite Ef, Es. cbn [mact mperm]. unfold act_perm, fflip. intros q. cbn [base_perm]. unfold flipb.
  destruct (forallb f (removelast qs)).
  - destruct (q =? last qs 0); [now rewrite xorb_true_r|reflexivity].
  - destruct (Nat.eqb_spec q (last qs 0)) as [->|]; [now rewrite xorb_false_r|reflexivity].
Qed.

Lemma gate_agrees_fsim g f :
  match cact_of (to_gate g) with
  | CFlip cs t => beq (mperm (gden mono mden g) f) (fflip f cs t)
  | CId => beq (mperm (gden mono mden g) f) f
  | CNone => True
  end.
Proof.
  destruct g as [o k qs p]. unfold cact_of, to_gate, gden. cbn [gkind gqs qkind qqs qpar].
  destruct k as [[]| | | | |n|[] n| |]; cbn [x_controls]; try exact I; try (intros q; reflexivity);
    (destruct (length qs =? _) eqn:Hl; [apply Nat.eqb_eq in Hl; eapply cx_agrees_fflip; [reflexivity|exact Hl]|exact I]).
Qed.

(* the bit part of the instance is the classical semantics fsim of Circ.v *)
Theorem mono_agrees_fsim : forall l f f', fsim f (map to_gate l) = Some f' ->
  beq (mperm (mcden l) f) f'.
Proof.
  induction l as [|g l IH]; intros f f'; cbn [map fsim].
  - intros H. injection H as <-. intros q. reflexivity.
  - pose proof (gate_agrees_fsim g f) as Hg. unfold mcden. rewrite cden_cons. cbn [mcomp mperm].
    destruct (cact_of (to_gate g)) as [cs t| |]; [| |discriminate]; intros H q;
      rewrite (mperm_ext (cden mono mcomp mid mden l) _ _ Hg q); now apply IH.
Qed.

Definition bit0 : bits := fun q => q =? 0.

(* before fix cfe687c a same-object S,S pair is removed, but S;S = Z is not the identity *)
Definition ss_circ : qcirc :=
  mkc 2 [mkq 0 (K1 BH) [1] PhNone; mkq 1 (K1 BS) [0] PhNone; mkq 1 (K1 BS) [0] PhNone].

Theorem remove_identities_ss_refuted :
  exists c', remove_identities false false ss_circ = Ok c' /\
             cgates c' = [mkq 0 (K1 BH) [1] PhNone] /\
             ~ mueq (mcden (cgates c')) (mcden (cgates ss_circ)).
Proof.
  eexists. split; [reflexivity|]. split; [reflexivity|]. intros H.
  destruct (H bit0) as [_ [[m Hm] _]]. cbn in Hm. unfold Qeq in Hm. cbn in Hm. lia.
Qed.

(* a leading identical pair: IndexError before fix 92769e9, removed since *)
Definition xx_circ : qcirc := mkc 1 [mkq 0 (K1 BX) [0] PhNone; mkq 0 (K1 BX) [0] PhNone].

(* before fix cd209e7 repeat(0) is one copy of the circuit, not the 0-fold composition *)
Definition x_circ : qcirc := mkc 1 [mkq 0 (K1 BX) [0] PhNone].
