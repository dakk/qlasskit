(* Prop_C02_model.v — theorems about the executable model of the synthesiser
   (M_Compiler.v: InternalCompiler.compile and the QCircuitEnhanced bookkeeping),
   for ALL expression lists of a precisely defined class, all inputs and every
   legal resolution of the two places where Python set order is observable.

   The class (in_class, a boolean function the harness evaluates on each observed
   program): the n-ary Or rewrites supplied by sympy have the covered shape; the
   expression list is single-assignment over symbols defined before use
   (wf_defs); no target is a "__" temporary; every right-hand side is a constant,
   a symbol, or a compound expression built from Not / And / Or (two operands, or
   more through the rewrite) / non-empty Xor over symbols, without nested
   constants (ok_expr).  The class includes a Not applied to an n-ary Or, Or
   operands that sit on one qubit, plain copies `y = a`, and reading a return bit.
   Run-time guard: no ancilla is recycled (nopop: the oracle has no `pop` choice;
   on the quick corpus no run ever recycles one).

   What is NOT proved: C06; C02 and C03 outside the class or when an ancilla is
   recycled.  The _refuted theorem shows that the "__" condition is needed (API
   only: the front end never reads a temporary twice). *)
From Coq Require Import List Bool NArith Arith.
From QV Require Import Bexp BexpTT Circ Compiled M_Compiler P_Compiler.
Import ListNotations.

(* CACHE SOUNDNESS: after compile_expr, every entry (e' -> q) of the
   expression cache names a qubit that holds the value of e' *)
Theorem C02m_cache_soundness : forall n inp env tbl fuel e dest st r st',
  tbl_ok tbl = true -> pre n inp env e dest st -> cexpr fuel n tbl e dest st = Ok (r, st') ->
  forall e' q, In (e', q) (st_cache st') -> V n inp st' q = beval env e'.
Proof.
  intros n inp env tbl fuel e dest st r st' Ht Hp H.
  destruct (cexpr_spec n inp env tbl Ht fuel e dest st r st' Hp H) as (I1 & _).
  exact (i_cache _ _ _ st' I1).
Qed.
Print Assumptions C02m_cache_soundness.

(* XOR ACCUMULATION: with a destination d the call returns d and d holds
   old(d) xor value(e); without, the returned qubit holds value(e) *)
Theorem C02m_xor_accumulation : forall n inp env tbl fuel e dest st r st',
  tbl_ok tbl = true -> pre n inp env e dest st -> cexpr fuel n tbl e dest st = Ok (r, st') ->
  match dest with
  | Some d => r = d /\ V n inp st' d = xorb (V n inp st d) (beval env e)
  | None => V n inp st' r = beval env e
  end.
Proof.
  intros n inp env tbl fuel e dest st r st' Ht Hp H.
  destruct (cexpr_spec n inp env tbl Ht fuel e dest st r st' Hp H)
    as (_ & _ & _ & _ & _ & _ & _ & _ & _ & R).
  destruct dest; [exact R|exact (proj1 R)].
Qed.
Print Assumptions C02m_xor_accumulation.

(* FRAME: no qubit that existed before the call changes, except the
   destination; every mapped symbol still sits on a qubit holding its value *)
Theorem C02m_frame : forall n inp env tbl fuel e dest st r st',
  tbl_ok tbl = true -> pre n inp env e dest st -> cexpr fuel n tbl e dest st = Ok (r, st') ->
  (forall q, q < st_nq st -> dest <> Some q -> V n inp st' q = V n inp st q) /\
  (forall s q, In (NSym s, q) (st_qmap st') -> V n inp st' q = env s).
Proof.
  intros n inp env tbl fuel e dest st r st' Ht Hp H.
  destruct (cexpr_spec n inp env tbl Ht fuel e dest st r st' Hp H) as (I1 & X1 & _).
  split; [exact (x_frame _ _ _ _ _ X1)|exact (i_sym _ _ _ st' I1)].
Qed.
Print Assumptions C02m_frame.

(* the whole contract (invariant, extension relation, marking discipline) *)
Theorem C02m_compile_expr_contract : forall n inp env tbl,
  tbl_ok tbl = true -> forall fuel, rec_spec n inp env (cexpr fuel n tbl).
Proof. intros n inp env tbl. exact (cexpr_spec n inp env tbl). Qed.
Print Assumptions C02m_compile_expr_contract.

(* the cache is sound and nothing is left marked after every statement of compile *)
Theorem C02m_cache_sound_between_statements : forall n isret is_temp tbl ds orc st X,
  in_class n is_temp tbl ds = true -> nopop orc = true ->
  compile_raw n tbl is_temp isret ds orc = Ok st ->
  (forall e q, In (e, q) (st_cache st) -> grun (st_gates st) (basis n X) q = beval (run_defs (asg X) ds) e) /\
  st_marked st = [].
Proof.
  intros n isret is_temp tbl ds orc st X Hc Ho H.
  destruct (compile_raw_inv n isret is_temp tbl ds orc st X Hc Ho H) as [I0 Hm].
  split; [exact (i_cache _ _ _ st I0)|exact (proj1 Hm)].
Qed.
Print Assumptions C02m_cache_sound_between_statements.

(* C02 FOR EVERY PROGRAM OF THE CLASS, uncompute = False *)
Theorem C02m_class_holds : forall n isret is_temp tbl ds orc rs st rets,
  in_class n is_temp tbl ds = true -> nopop orc = true ->
  compile n tbl is_temp isret ds false rs orc = Ok st ->
  rets_mapped st rets ->
  all_classical (out_gates st) = true /\ c02_holds n (out_gates st) ds rets.
Proof.
  intros n isret is_temp tbl ds orc rs st rets Hc Ho H Hr. apply (compile_c02 _ _ _ _ _ _ _ _ _ _ Hc Ho H).
  intros s q Hin. split; [now apply Hr|discriminate].
Qed.
Print Assumptions C02m_class_holds.

(* and with uncompute = True, for the return bits: uncompute_all never
   replays a gate onto a kept qubit *)
Theorem C02m_class_holds_uncompute : forall n isret is_temp tbl ds orc rs st rets,
  in_class n is_temp tbl ds = true -> nopop orc = true ->
  compile n tbl is_temp isret ds true (Some rs) orc = Ok st ->
  rets_kept st rs rets ->
  all_classical (out_gates st) = true /\ c02_holds n (out_gates st) ds rets.
Proof.
  intros n isret is_temp tbl ds orc rs st rets Hc Ho H Hr. apply (compile_c02 _ _ _ _ _ _ _ _ _ _ Hc Ho H).
  intros s q Hin. destruct (Hr s q Hin) as [Hs Hq]. split; [now apply qm_get_in|].
  intros _ rs' E. injection E as <-. apply in_flat_map. exists s. split; [exact Hs|]. rewrite Hq. now left.
Qed.
Print Assumptions C02m_class_holds_uncompute.

(* C03 FOR EVERY PROGRAM OF THE CLASS (no ancilla recycled), uncompute = True:
   the inputs are preserved and every qubit that is neither an input nor an output
   ends in state zero *)
Theorem C03m_class_holds : forall n isret is_temp tbl ds orc rs st,
  in_class n is_temp tbl ds = true -> nopop orc = true ->
  compile n tbl is_temp isret ds true (Some rs) orc = Ok st ->
  all_classical (out_gates st) = true /\ c03_holds n (st_nq st) (out_gates st) (out_qubits st rs).
Proof. exact compile_c03. Qed.
Print Assumptions C03m_class_holds.

(* no gate ever targets an argument qubit, under every setting of uncompute *)
Theorem C03m_class_inputs_preserved : forall n isret is_temp tbl ds unc rs orc st,
  in_class n is_temp tbl ds = true -> nopop orc = true ->
  compile n tbl is_temp isret ds unc rs orc = Ok st ->
  Forall (fun g => n <= tgt g) (st_gates st) /\
  forall X q, q < n -> grun (st_gates st) (basis n X) q = basis n X q.
Proof. exact compile_inputs_preserved. Qed.
Print Assumptions C03m_class_inputs_preserved.

(* the inline uncompute: after every statement, every ancilla that was not promoted
   to a named qubit is back to zero *)
Theorem C03m_ancillas_zero_between_statements : forall n isret is_temp tbl ds orc st X,
  in_class n is_temp tbl ds = true -> nopop orc = true ->
  compile_raw n tbl is_temp isret ds orc = Ok st ->
  forall q, In q (st_anc st) -> grun (st_gates st) (basis n X) q = false.
Proof.
  intros n isret is_temp tbl ds orc st X Hc Ho H q Hq.
  destruct (compile_raw_inv n isret is_temp tbl ds orc st X Hc Ho H) as (I0 & _ & Hb).
  exact (i_zfree _ _ _ st I0 q (Hb q Hq)).
Qed.
Print Assumptions C03m_ancillas_zero_between_statements.

(* the replay lemma behind both uncompute and uncompute_all *)
Theorem C03m_replay_restores : forall U G, sc U G -> (forall g, In g G -> ~ In (tgt g) (ctrls g)) ->
  forall f q, grun (G ++ rev (subU U G)) f q = if mem_nat q U then f q else grun G f q.
Proof. exact replay_restores. Qed.
Print Assumptions C03m_replay_restores.

Theorem C02m_or_rewrite_accepted_is_equivalent : forall env l e',
  or_valid l e' = true -> beval env e' = beval env (BOr l).
Proof. exact or_valid_sound. Qed.
Print Assumptions C02m_or_rewrite_accepted_is_equivalent.

Theorem C02m_remove_identities_preserves : forall nq k gs, length gs <= k -> Forall (gate_ok nq) gs ->
  forall f q, grun (rm_id gs) f q = grun gs f q.
Proof. intros nq k gs _. apply rm_id_sound. Qed.
Print Assumptions C02m_remove_identities_preserves.

Theorem C02m_final_uncompute_spares_kept_qubits : forall keep st st', uncompute_all keep st = Ok st' ->
  exists R, st_gates st' = st_gates st ++ R /\ st_qmap st' = st_qmap st /\ st_nq st' = st_nq st /\
            incl R (st_gates st) /\ forall g, In g R -> ~ In (tgt g) keep.
Proof. exact uncompute_all_spec. Qed.
Print Assumptions C02m_final_uncompute_spares_kept_qubits.

(* Or operands that sit on one qubit, and a Not of an n-ary Or whose operand is in the
   cache: both programs are in the class, and the circuits the model gives are correct *)
Theorem C02m_former_witness_aliased_or_now_holds :
  in_class 2 no_temp [] w_alias_defs = true /\ nopop w_alias_orc = true /\
  exists st, compile 2 [] no_temp (fun s => Nat.eqb s 4) w_alias_defs false (Some [4]) w_alias_orc = Ok st /\
             rets_mapped st [(4, 3)] /\ c02_holds 2 (out_gates st) w_alias_defs [(4, 3)].
Proof.
  split; [vm_compute; reflexivity|]. split; [reflexivity|]. eexists. split; [vm_compute; reflexivity|]. split.
  - intros s q [E|[]]. injection E as <- <-. vm_compute. tauto.
  - apply (c02_checked 2 4). vm_compute. reflexivity.
Qed.
Print Assumptions C02m_former_witness_aliased_or_now_holds.

Theorem C02m_former_witness_not_of_nary_or_now_holds :
  in_class 4 no_temp w_nary_tbl w_nary_defs = true /\ nopop w_nary_orc = true /\
  exists st, compile 4 w_nary_tbl no_temp (fun s => Nat.eqb s 5) w_nary_defs false (Some [5]) w_nary_orc = Ok st /\
             rets_mapped st [(5, 10)] /\ c02_holds 4 (out_gates st) w_nary_defs [(5, 10)].
Proof.
  split; [vm_compute; reflexivity|]. split; [reflexivity|]. eexists. split; [vm_compute; reflexivity|]. split.
  - intros s q [E|[]]. injection E as <- <-. vm_compute. tauto.
  - apply (c02_checked 4 11). vm_compute. reflexivity.
Qed.
Print Assumptions C02m_former_witness_not_of_nary_or_now_holds.

(* false without the "__" condition:
   __t = a & b ; x = __t & d ; _ret = x ^ (__t & e) — a "__" temporary read
   after the statement that consumed (and uncomputed) it *)
Theorem C02m_refuted_temporary_read_twice : exists st,
  compile 5 [] (fun s => Nat.eqb s 6) (fun s => Nat.eqb s 8) w_temp_defs false (Some [8]) w_temp_orc = Ok st /\
  nopop w_temp_orc = true /\ c02_fails 5 st w_temp_defs [(8, 7)].
Proof.
  eexists. split; [vm_compute; reflexivity|]. split; [reflexivity|].
  eapply c02_fails_by_check.
  - intros s q [E|[]]. injection E as <- <-. vm_compute. tauto.
  - vm_compute. reflexivity.
  - discriminate.
Qed.
Print Assumptions C02m_refuted_temporary_read_twice.

(* non-vacuity: a program of the class, compiled by the model *)
Example C02m_class_is_inhabited :
  in_class 4 no_temp [] w_ok_defs = true /\
  exists st, compile 4 [] no_temp (fun s => Nat.eqb s 6) w_ok_defs false (Some [6]) w_ok_orc = Ok st /\
             In (NSym 6, 6) (st_qmap st).
Proof.
  split; [vm_compute; reflexivity|]. eexists. split; [vm_compute; reflexivity|]. vm_compute. tauto.
Qed.
