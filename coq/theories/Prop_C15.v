(* Prop_C15.v — "Grover search amplifies exactly the solutions of the predicate".

   What is proved for EVERY n, every oracle gate list and every iteration count,
   under the reference amplitude semantics run_ref of Amp.v (integer amplitudes
   psi with a counter k: amplitude psi i / sqrt(2)^k):

   (1) grover_depends_only_on_f: the Grover circuit M_Algo builds (compared EXACTLY
       with the implementation's gate list on every case) around two oracle gate
       lists that the verified checker c06_check accepts as clean xor-oracles for
       the same predicate has the same amplitude on every (search register, `_ret`,
       phase qubit) basis state and amplitude 0 wherever a scratch qubit is
       non-zero — whatever the scratch qubits, the position of `_ret`, the gates.
       The amplitudes are those of an abstract state gabs n f iters that mentions
       only n, the predicate and the iteration count.
   (2) the oracle key lemma, and the diffuser AS CODED is 2^(n+1) - 2 * (sum over
       search register and phase qubit), i.e. the inversion about the mean.
   (3) grover_classes: the abstract state is a function of the class (f x, `_ret`,
       phase) only and its 8 class amplitudes follow an integer recurrence in N = 2^n
       and M = #solutions; the recurrence is evaluated (vm_compute inside the proof)
       for every 2 <= n <= 6, 1 <= M <= N/4 with the default iteration count
       ceil(pi/4 sqrt(N/M)): C15_grover_amplifies — for EVERY predicate in that
       range and EVERY accepted oracle circuit, every solution is strictly more
       likely than every non-solution and the solutions together have probability
       > 1/2.  No enumeration of predicates is involved.
   Decided per case by the harness (not by a for-all theorem): the gate list of the
   implementation equals grover_circuit (exact comparison), the oracle is accepted by
   c06_check, n_matching equals the number of solutions, the iteration count equals
   grover_iters, decode_output returns the register content in the argument type; and,
   independently of the theorems, the exact distribution computed by the verified
   evaluator run_amp on the real gate list (C15_amp_evaluator_correct) is compared
   across syntactic forms and tested against the two conclusions of C15_grover_amplifies. *)
From Coq Require Import List Bool NArith ZArith Arith.
From QV Require Import Bexp BexpTT Circ Compiled Amp WH M_Algo P_Algo.
Import ListNotations.
Local Open Scope N_scope.

(* the evaluator that decides the concrete circuits *)
Theorem C15_amp_evaluator_correct : forall nq c,
  match run_amp nq c, run_ref nq c (delta0, 0%nat) with
  | Some (l, k), Some (psi, k') => k = k' /\ forall i, amp_of l i = psi i
  | None, None => True
  | _, _ => False
  end.
Proof. exact amp_run_spec. Qed.
Print Assumptions C15_amp_evaluator_correct.

Theorem C15_marginal_is_reference : forall nq c l k psi mask y,
  run_amp nq c = Some (l, k) -> run_ref nq c (delta0, 0%nat) = Some (psi, k) ->
  strictly_sorted l = true -> keys_below nq l = true ->
  amp_of (marginal mask l) y =
  sumN nq (fun i => if N.eqb y (N.land i mask) then (psi i * psi i)%Z else 0%Z).
Proof. exact marginal_is_reference. Qed.
Print Assumptions C15_marginal_is_reference.

(* in the (nq+1)-qubit register the accepted oracle circuit maps the amplitude of
   (x, y, scratch 0, phase p) to (x, y xor f x, 0, p) and keeps dirty states dirty *)
Theorem C15_oracle_acts_as_xor_map : forall n nq c ds ret out,
  (n <= out < nq)%nat -> xonly nq c = true -> c06_check n nq c ds ret out = Some 0 ->
  forall psi k,
  exists psi', run_ref (S nq) c (psi, k) = Some (psi', k) /\
    (forall i, cleanq n nq out i = true -> psi' i = psi (omap n ds ret out i)) /\
    (forall i, cleanq n nq out i = false -> exists j, cleanq n nq out j = false /\ psi' i = psi j).
Proof. intros n nq c ds ret out Ho Hx Hc. intros psi k. exact (oracle_action_in n nq c ds ret out Ho Hx (c06_checked _ _ _ _ _ _ Ho Hc) (S nq) psi k (Nat.le_succ_diag_r nq)). Qed.
Print Assumptions C15_oracle_acts_as_xor_map.

(* the circuit factors through the abstract oracle map *)
Theorem C15_grover_amplitudes : forall n nq c ds ret out iters,
  (n <= out < nq)%nat -> xonly nq c = true -> c06_check n nq c ds ret out = Some 0 ->
  exists psi, run_ref (S nq) (grover_circuit n nq out c iters) (delta0, 0%nat)
              = Some (psi, (n + 1 + S (iters - 1) * (2 * n + 2))%nat) /\
    (forall x r p, x < pow2n n ->
       psi (enc out nq x r p) = gabs n (fun x => run_defs (asg x) ds ret) iters (enc (S n) n x r p)) /\
    (forall i, clean3 n nq out i = false -> psi i = 0%Z).
Proof. intros n nq c ds ret out iters Ho Hx Hc. exact (grover_amplitudes n nq c ds ret out Ho Hx (c06_checked _ _ _ _ _ _ Ho Hc) iters). Qed.
Print Assumptions C15_grover_amplitudes.

Theorem C15_grover_depends_only_on_f : forall n iters nq1 c1 ds1 ret1 out1 nq2 c2 ds2 ret2 out2,
  (n <= out1 < nq1)%nat -> xonly nq1 c1 = true -> c06_check n nq1 c1 ds1 ret1 out1 = Some 0 ->
  (n <= out2 < nq2)%nat -> xonly nq2 c2 = true -> c06_check n nq2 c2 ds2 ret2 out2 = Some 0 ->
  (forall x, x < pow2n n -> run_defs (asg x) ds1 ret1 = run_defs (asg x) ds2 ret2) ->
  exists psi1 psi2 k,
    run_ref (S nq1) (grover_circuit n nq1 out1 c1 iters) (delta0, 0%nat) = Some (psi1, k) /\
    run_ref (S nq2) (grover_circuit n nq2 out2 c2 iters) (delta0, 0%nat) = Some (psi2, k) /\
    (forall x r p, x < pow2n n -> psi1 (enc out1 nq1 x r p) = psi2 (enc out2 nq2 x r p)) /\
    (forall i, clean3 n nq1 out1 i = false -> psi1 i = 0%Z) /\
    (forall i, clean3 n nq2 out2 i = false -> psi2 i = 0%Z).
Proof.
  intros n iters nq1 c1 ds1 ret1 out1 nq2 c2 ds2 ret2 out2 Ho1 Hx1 Hc1 Ho2 Hx2 Hc2.
  exact (grover_depends_only_on_f n iters _ _ _ _ _ _ _ _ _ _ Ho1 Hx1 (c06_checked _ _ _ _ _ _ Ho1 Hc1) Ho2 Hx2 (c06_checked _ _ _ _ _ _ Ho2 Hc2)).
Qed.
Print Assumptions C15_grover_depends_only_on_f.

(* the abstract state depends on the predicate only through its values on x < 2^n *)
Theorem C15_abstract_state_depends_on_values : forall n f g iters a,
  (forall x, x < pow2n n -> f x = g x) -> gabs n f iters a = gabs n g iters a.
Proof. exact gabs_ext. Qed.
Print Assumptions C15_abstract_state_depends_on_values.

(* Walsh-Hadamard algebra, every n: H^n ; sign flip of the all-zero component ; H^n *)
Theorem C15_diffuser_is_reflection : forall n psi i,
  WH n (Z0 n (WH n psi)) i = (pow2z n * psi i - 2 * sumN n (fun x => psi (setlow n i x)))%Z.
Proof. exact diffuser_is_reflection. Qed.
Print Assumptions C15_diffuser_is_reflection.

(* the diffuser's gate list, as coded, is that transformer ... *)
Theorem C15_diffuser_gates : forall NQ n p, (n <= p < NQ)%nat -> forall psi k,
  run_ref NQ (grover_diffuser n p) (psi, k) = Some (diff_l n (N.of_nat p) psi, (k + (2 * n + 2))%nat).
Proof. exact run_ref_diffuser. Qed.
Print Assumptions C15_diffuser_gates.

(* ... and on the canonical layout (phase qubit next to the search register) it is
   2^(n+1) * identity - 2 * (sum over search register and phase qubit) *)
Theorem C15_grover_diffuser_is_reflection : forall n psi i,
  diff_l n (N.of_nat n) psi i =
  (pow2z (S n) * psi i - 2 * sumN (S n) (fun x => psi (setlow (S n) i x)))%Z.
Proof. exact grover_diffuser_is_reflection. Qed.
Print Assumptions C15_grover_diffuser_is_reflection.

Theorem C15_grover_classes : forall n f iters a,
  gabs n f iters a = class_state n f (c_iter (S (iters - 1)) n (fcount n f) c_init) a.
Proof. exact grover_classes. Qed.
Print Assumptions C15_grover_classes.

(* pr4 psi out nq x / 2^k is the probability of reading x on the search register;
   m = number of solutions, iters = the default iteration count *)
Theorem C15_grover_amplifies : forall n nq c ds ret out m iters,
  (n <= out < nq)%nat -> xonly nq c = true -> c06_check n nq c ds ret out = Some 0 ->
  (2 <= n <= 6)%nat -> (1 <= m)%nat -> (4 * m <= 2 ^ n)%nat ->
  sumN n (fun x => if run_defs (asg x) ds ret then 1%Z else 0%Z) = Z.of_nat m ->
  grover_iters (2 ^ N.of_nat n) (N.of_nat m) = Some iters ->
  exists psi, run_ref (S nq) (grover_circuit n nq out c iters) (delta0, 0%nat) = Some (psi, grover_k n iters) /\
    (forall i, clean3 n nq out i = false -> psi i = 0%Z) /\
    (forall x x', x < pow2n n -> x' < pow2n n ->
       run_defs (asg x) ds ret = true -> run_defs (asg x') ds ret = false ->
       (pr4 psi out nq x' < pr4 psi out nq x)%Z) /\
    (forall x, x < pow2n n -> run_defs (asg x) ds ret = true ->
       (pow2z (grover_k n iters) < 2 * Z.of_nat m * pr4 psi out nq x)%Z).
Proof.
  intros n nq c ds ret out m iters Ho Hx Hc Hn Hm H4 Hcnt Hit.
  destruct (C15_grover_amplitudes n nq c ds ret out iters Ho Hx Hc) as (psi & Hr & Ha & Hz).
  destruct (gabs_amplifies n _ m iters Hn Hm H4 Hcnt Hit) as (T1 & T2).
  exists psi. split; [exact Hr|]. split; [exact Hz|]. split.
  - intros x x' Hxx Hxx'. rewrite !(pr4_ext n psi _ out nq _ _ _ Ha) by assumption. now apply T1.
  - intros x Hxx. rewrite (pr4_ext n psi _ out nq _ _ _ Ha) by assumption. now apply T2.
Qed.
Print Assumptions C15_grover_amplifies.

(* grover_iters decides ceil(pi/4 sqrt(N/M)) in integers; e.g. the values the
   implementation uses on the sizes explored *)
Example C15_ex_iters :
  map (fun nm => grover_iters (fst nm) (snd nm)) [(4, 1); (8, 1); (8, 2); (16, 1); (16, 4); (32, 1); (32, 8); (64, 1); (64, 16)]
  = map Some [2; 3; 2; 4; 2; 5; 2; 7; 2]%nat.
Proof. vm_compute. reflexivity. Qed.

(* the table covers 31 (n, M) pairs, and its test is not vacuous: with one iteration
   less than the default (floor instead of ceil) N = 32, M = 1 stays below 1/2 *)
Example C15_ex_table : length table_range = 31%nat /\ table_ok 5 1 = true.
Proof. split; [reflexivity|]. apply table_ok_in; [split| |]; apply Nat.leb_le; reflexivity. Qed.
Example C15_ex_table_strict :
  let c := c_iter 4 5 1 c_init in (2 * 1 * c_prob c true <? pow2z (grover_k 5 4))%Z = true.
Proof. cbv zeta. rewrite c_prob_iter_tab. vm_compute. reflexivity. Qed.

(* the hypotheses are satisfiable; the evaluator computes *)
(* two different oracle circuits for f(x) = (x == 3) on 2 bits: CCX directly, or through a scratch qubit *)
Example C15_ex_two_oracles :
  let c1 := [mkg KCCX [0; 1; 2]%nat None] in
  let c2 := [mkg KCCX [0; 1; 2]%nat None; mkg KCX [2; 3]%nat None; mkg KCCX [0; 1; 2]%nat None] in
  let ds := [(3%nat, BAnd [BSym 0; BSym 1])] in
  xonly 3 c1 = true /\ c06_check 2 3 c1 ds 3 2 = Some 0 /\
  xonly 4 c2 = true /\ c06_check 2 4 c2 ds 3 3 = Some 0.
Proof. repeat split; vm_compute; reflexivity. Qed.
(* ... and the exact marginal distributions of the search register coincide:
   N = 4, M = 1, 2 iterations, k = 15: 512 / 2^15 = 1/64 for each non-solution, 31232 / 2^15 = 0.953125 for x = 3;
   the class recurrence gives the same numbers *)
Example C15_ex_distributions :
  let c1 := [mkg KCCX [0; 1; 2]%nat None] in
  let c2 := [mkg KCCX [0; 1; 2]%nat None; mkg KCX [2; 3]%nat None; mkg KCCX [0; 1; 2]%nat None] in
  match run_amp 4 (grover_circuit 2 3 2 c1 2), run_amp 5 (grover_circuit 2 4 3 c2 2) with
  | Some (l1, k1), Some (l2, k2) =>
      k1 = k2 /\ marginal 3 l1 = marginal 3 l2 /\
      (marginal 3 l1, k1) = ([(0, 512%Z); (1, 512%Z); (2, 512%Z); (3, 31232%Z)], 15%nat) /\
      (let c := c_iter 2 2 1 c_init in (c_prob c false, c_prob c true, grover_k 2 2)) = (512%Z, 31232%Z, 15%nat)
  | _, _ => False
  end.
Proof. vm_compute. repeat split; reflexivity. Qed.
