(* P_Effects.v — about M_Effects.v.  A pure operation returns its operands as it found them
   (run_op_pure), so writing them back changes nothing (write_back_same) and a step only appends
   the new objects to the heap (exec_step_pure).  A history of such steps extends the heap, which
   is the frame property. *)
From Coq Require Import List Arith Bool Lia.
From QV Require Import BexpTT M_Effects.
Import ListNotations.

Section EffectsProofs.
  Variable obj : Type.
  Variable dflt : obj.
  Notation step := (step obj dflt).
  Notation run_op := (run_op obj dflt).
  Notation exec_step := (exec_step obj dflt).
  Notation exec_history := (exec_history obj dflt).
  Notation write_back := (write_back obj dflt).

  (* run_op_pure from any accumulator, for the induction *)
  Lemma fold_pure acts : pure_op obj acts = true -> forall ops loc,
    fst (fold_left step acts (ops, loc)) = ops.
  Proof.
    induction acts as [|a acts IH]; intros Hp ops loc; [reflexivity|].
    cbn [pure_op forallb] in Hp. apply andb_true_iff in Hp as [Ha Hp]. cbn [fold_left].
    destruct a as [o|[k|k]|k f|k f]; cbn [step pure_action] in *; try discriminate; now apply IH.
  Qed.

  Lemma run_op_pure acts ops : pure_op obj acts = true -> fst (run_op acts ops) = ops.
  Proof. intros H. now apply fold_pure. Qed.

  Lemma upd_same (h : list obj) a : (a < length h)%nat -> upd dflt h a (nth a h dflt) = h.
  Proof.
    revert a; induction h as [|x h IH]; intros a Ha; [cbn in Ha; lia|].
    destruct a as [|a]; cbn [upd nth]; [reflexivity|]. f_equal. apply IH. cbn in Ha. lia.
  Qed.

  Lemma write_back_same h addrs : Forall (fun a => a < length h)%nat addrs ->
    write_back h addrs (map (fun a => nth a h dflt) addrs) = h.
  Proof.
    induction 1 as [|a ar Ha _ IH]; [reflexivity|]. cbn [map M_Effects.write_back].
    rewrite upd_same by exact Ha. exact IH.
  Qed.

  Definition wf_step (h : list obj) (s : hstep obj) : Prop :=
    pure_op obj (s_acts obj s) = true /\ Forall (fun a => a < length h)%nat (s_args obj s).

  (* one pure step: the heap is extended, nothing that existed changes, and the
     result is the operation run on the operands' contents *)
  Lemma exec_step_pure h s : wf_step h s ->
    exec_step h s = (h ++ snd (run_op (s_acts obj s) (map (fun a => nth a h dflt) (s_args obj s))),
                     snd (run_op (s_acts obj s) (map (fun a => nth a h dflt) (s_args obj s)))).
  Proof.
    intros [Hp Ha]. unfold M_Effects.exec_step.
    pose proof (run_op_pure (s_acts obj s) (map (fun a => nth a h dflt) (s_args obj s)) Hp) as Hf.
    destruct (run_op (s_acts obj s) (map (fun a => nth a h dflt) (s_args obj s))) as [ops' loc].
    cbn [fst snd] in *. subst ops'. now rewrite write_back_same.
  Qed.

  (* histories whose every step is pure and reads existing objects *)
  Fixpoint wf_history (h : list obj) (hs : list (hstep obj)) : Prop :=
    match hs with
    | [] => True
    | s :: r => wf_step h s /\ wf_history (fst (exec_step h s)) r
    end.

  Lemma history_extends hs : forall h, wf_history h hs -> exists ext, fst (exec_history h hs) = h ++ ext.
  Proof.
    induction hs as [|s r IH]; intros h Hwf; [exists []; now rewrite app_nil_r|].
    destruct Hwf as [Hs Hr]. cbn [M_Effects.exec_history].
    rewrite (exec_step_pure h s Hs) in *. cbn [fst] in Hr.
    destruct (IH _ Hr) as [ext E]. destruct (exec_history _ r) as [h'' rs]. cbn [fst] in *.
    eexists. rewrite E, <- app_assoc. reflexivity.
  Qed.

  (* frame: whatever happens later, an object keeps the content it had *)
  Theorem history_frame hs : forall h, wf_history h hs ->
    forall a, (a < length h)%nat -> nth a (fst (exec_history h hs)) dflt = nth a h dflt.
  Proof. intros h Hwf a Ha. destruct (history_extends hs h Hwf) as [ext ->]. now apply app_nth1. Qed.
End EffectsProofs.
