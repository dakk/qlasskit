(* Prop_C14.v — property C14 "Circuit composition operators compose", stated
   against the model M_QCircuit.v of qcircuit.py / qcircuitenhanced.py.
   The longer proofs are in P_QCircuit.v.

   Semantics: ANY type U with an equivalence [ueq], a composition [comp] (first
   argument first) with identity [uid], a denotation [den kind qubits param] of
   every gate and an action [ren] of qubit permutations, satisfying the laws
   named in each theorem:
     monoid_laws   ueq is an equivalence respected by comp; comp associative, uid neutral
     rename_laws   ren p distributes over comp and uid; den (gate on p(qubits)) = ren p (den gate)
     barrier_law   a barrier denotes uid
     selfinv_law   I X Y Z H Swap CX CZ CCX MCX MCtrl(those) twice on duplicate-free qubits = uid
     cp_inv_law    CP(t) then CP(-t) on two distinct qubits = uid
     swap_comm_law swaps on disjoint qubit pairs commute
   [cden U comp uid den gates] is the composition of the denotations in list order.
   The laws are satisfiable: C14_instance_laws proves them for an exact
   permutation-and-phase semantics whose bit part is Circ.fsim.

   Model flags (see M_QCircuit.v): [true] = the code as repaired by fixes
   a1ac410, cd209e7, 92769e9, cfe687c; [false] = the code before them. *)
From Coq Require Import List Bool NArith ZArith Arith Setoid Morphisms.
From QV Require Import Circ M_QCircuit P_QCircuit.
Import ListNotations.

Theorem C14_append_appends_one_gate : forall U ueq comp uid den,
  monoid_laws U ueq comp uid ->
  forall strict c g c', qc_append strict c g = Ok c' ->
  cn c' = cn c /\ cgates c' = cgates c ++ [g] /\ gate_ok g /\
  ueq (cden U comp uid den (cgates c')) (comp (cden U comp uid den (cgates c)) (gden U den g)).
Proof.
  intros U ueq comp uid den HM strict c g c' H. apply qc_append_iff in H as (_ & Hok & ->).
  split; [reflexivity|]. split; [reflexivity|]. split; [exact Hok|]. cbn [cgates]. apply cden_snoc, HM.
Qed.
Print Assumptions C14_append_appends_one_gate.

Theorem C14_append_patched_keeps_range : forall c g c',
  in_range (cn c) (cgates c) -> qc_append true c g = Ok c' ->
  in_range (cn c') (cgates c') /\ gate_ok g.
Proof.
  intros c g c' Hr H. apply qc_append_iff in H as (Hq & Hok & ->). split; [|exact Hok].
  apply Forall_app. split; [exact Hr|]. constructor; [|constructor].
  eapply Forall_impl; [|exact Hq]. intros q Hb. apply Nat.leb_gt in Hb. exact Hb.
Qed.
Print Assumptions C14_append_patched_keeps_range.

(* before fix a1ac410: `x > num_qubits` lets index == num_qubits through *)
Theorem C14_append_today_refuted :
  exists c', qc_append false (mkc 2 []) (mkq 0 (K1 BX) [2] PhNone) = Ok c' /\
             ~ in_range (cn c') (cgates c').
Proof.
  eexists. split; [reflexivity|]. intros H. apply Forall_inv in H. apply Forall_inv in H.
  exact (Nat.lt_irrefl 2 H).
Qed.
Print Assumptions C14_append_today_refuted.

(* append_circuit: `o` renamed by qs, after `c`;
   success already implies |qs| = o.num_qubits and that o's gates are in range;
   the remaining guard, that qs has no duplicates, is the existence of a
   permutation p of the qubit indices with p(i) = qs[i] (C14_renaming_exists). *)
Theorem C14_append_circuit_is_renamed_composition : forall U ueq comp uid den ren,
  monoid_laws U ueq comp uid -> rename_laws U ueq comp uid den ren ->
  forall c o qs c' p, qc_append_circuit c o qs = Ok c' -> extends p qs ->
  cn c' = cn c /\ cgates c' = cgates c ++ map (gmap (pf p)) (cgates o) /\
  length qs = cn o /\ in_range (cn o) (cgates o) /\
  ueq (cden U comp uid den (cgates c'))
      (comp (cden U comp uid den (cgates c)) (ren p (cden U comp uid den (cgates o)))).
Proof.
  intros U ueq comp uid den ren HM HR c o qs c' p H Hp.
  apply (qc_append_circuit_iff c o qs (pf p) c' Hp) in H as (_ & Hl & Hr & ->).
  repeat split; try assumption. cbn [cgates]. now apply cden_app_gmap.
Qed.
Print Assumptions C14_append_circuit_is_renamed_composition.

Theorem C14_renaming_exists : forall qs, NoDup qs <-> exists p, extends p qs.
Proof.
  intros qs. split; [exact (extend_exists qs)|intros [p H]; exact (extends_NoDup p qs H)].
Qed.
Print Assumptions C14_renaming_exists.

Theorem C14_add_is_sequential_composition : forall U ueq comp uid den,
  monoid_laws U ueq comp uid ->
  forall off c1 c2 c, qc_add off c1 c2 = Ok c ->
  cn c = cn c1 /\ map gsig (cgates c) = map gsig (cgates c1) ++ map gsig (cgates c2) /\
  ueq (cden U comp uid den (cgates c))
      (comp (cden U comp uid den (cgates c1)) (cden U comp uid den (cgates c2))).
Proof.
  intros U ueq comp uid den HM off c1 c2 c H. apply qc_iadd_iff in H as (_ & _ & ->).
  split; [reflexivity|]. cbn [cgates]. split; [now rewrite map_app, copy_sig|].
  rewrite <- (cden_copy U comp uid den off c1). apply cden_app, HM.
Qed.
Print Assumptions C14_add_is_sequential_composition.

Theorem C14_iadd_is_sequential_composition : forall U ueq comp uid den,
  monoid_laws U ueq comp uid ->
  forall c o c', qc_iadd c o = Ok c' ->
  cn c' = cn c /\ cgates c' = cgates c ++ cgates o /\
  ueq (cden U comp uid den (cgates c'))
      (comp (cden U comp uid den (cgates c)) (cden U comp uid den (cgates o))).
Proof.
  intros U ueq comp uid den HM c o c' H. apply qc_iadd_iff in H as (_ & _ & ->).
  split; [reflexivity|]. split; [reflexivity|]. cbn [cgates]. apply cden_app, HM.
Qed.
Print Assumptions C14_iadd_is_sequential_composition.

Theorem C14_iadd_succeeds : forall c o, cn o <= cn c -> in_range (cn o) (cgates o) ->
  qc_iadd c o = Ok (mkc (cn c) (cgates c ++ cgates o)).
Proof. intros c o Hn Hr. now apply qc_iadd_iff. Qed.
Print Assumptions C14_iadd_succeeds.

(* copy: an equal circuit (same gates, same sharing pattern, same denotation) *)
Theorem C14_copy_is_equal : forall U comp uid den off c,
  cn (qc_copy off c) = cn c /\
  map gsig (cgates (qc_copy off c)) = map gsig (cgates c) /\
  cden U comp uid den (cgates (qc_copy off c)) = cden U comp uid den (cgates c).
Proof. intros. split; [reflexivity|]. split; [apply copy_sig|apply cden_copy]. Qed.
Print Assumptions C14_copy_is_equal.

Theorem C14_copy_keeps_sharing : forall off a b,
  qgate_eqb (shift_id off a) (shift_id off b) = qgate_eqb a b.
Proof.
  intros off a b. unfold qgate_eqb, shift_id. cbn [qobj qqs qpar]. f_equal. f_equal.
  destruct (Nat.eqb_spec (qobj a) (qobj b)) as [->|H]; [apply Nat.eqb_refl|].
  apply Nat.eqb_neq. intros E. apply Nat.add_cancel_l in E. contradiction.
Qed.
Print Assumptions C14_copy_keeps_sharing.

Theorem C14_repeat_is_n_fold_composition : forall U ueq comp uid den,
  monoid_laws U ueq comp uid ->
  forall zero_empty n c r, qc_repeat zero_empty n c = Ok r ->
  1 <= n \/ zero_empty = true ->
  cn r = cn c /\ ueq (cden U comp uid den (cgates r)) (upow U comp uid n (cden U comp uid den (cgates c))).
Proof.
  intros U ueq comp uid den HM zero_empty n c r H Hg. unfold qc_repeat in H. destruct n as [|n].
  - destruct Hg as [Hg| ->]; [inversion Hg|]. injection H as <-. split; [reflexivity|].
    destruct HM as (Heq & _). reflexivity.
  - rewrite andb_false_r in H. cbn [Nat.sub] in H. rewrite Nat.sub_0_r in H.
    apply (repeat_loop_den U ueq comp uid den HM) in H as [Hn Hd]. rewrite !cden_copy in Hd.
    split; [exact Hn|exact Hd].
Qed.
Print Assumptions C14_repeat_is_n_fold_composition.

Theorem C14_repeat_succeeds : forall zero_empty n c, in_range (cn c) (cgates c) ->
  exists r, qc_repeat zero_empty n c = Ok r.
Proof.
  intros zero_empty n c Hr. unfold qc_repeat. destruct (zero_empty && (n =? 0)); [now eexists|].
  apply repeat_loop_succeeds; [apply le_n|now apply copy_in_range].
Qed.
Print Assumptions C14_repeat_succeeds.

(* before fix cd209e7, repeat(0) is repeat(1): one copy *)
Theorem C14_repeat_today_zero_is_one_copy : forall c,
  qc_repeat false 0 c = qc_repeat false 1 c /\
  qc_repeat false 0 c = Ok (qc_copy (2 * id_bound (cgates c)) c).
Proof. split; reflexivity. Qed.
Print Assumptions C14_repeat_today_zero_is_one_copy.

Theorem C14_repeat_today_zero_refuted :
  exists r, qc_repeat false 0 x_circ = Ok r /\
            ~ mueq (mcden (cgates r)) (upow mono mcomp mid 0 (mcden (cgates x_circ))).
Proof.
  eexists. split; [reflexivity|]. intros H. destruct (H bit0) as [Hb _].
  specialize (Hb 0). vm_compute in Hb. discriminate.
Qed.
Print Assumptions C14_repeat_today_zero_refuted.

(* remove_identities.  Guards: gate ids are consistent (one object has one
   class), every gate is well formed (duplicate-free qubits, right arity: what
   append enforces) and every pair the loop can cancel is a self-inverse gate.
   [pairs_self_inverse true _] always holds (the code tests it since fix
   cfe687c); before ([selfinv = false]) it is a genuine restriction. *)
Theorem C14_remove_identities_preserves_action : forall U ueq comp uid den,
  monoid_laws U ueq comp uid -> barrier_law U ueq uid den -> selfinv_law U ueq comp uid den ->
  forall selfinv guard c c', ids_consistent (cgates c) -> Forall gate_ok (cgates c) ->
  pairs_self_inverse selfinv (cgates c) -> remove_identities selfinv guard c = Ok c' ->
  cn c' = cn c /\ ueq (cden U comp uid den (cgates c')) (cden U comp uid den (cgates c)).
Proof. exact L_remove_identities. Qed.
Print Assumptions C14_remove_identities_preserves_action.

Theorem C14_remove_identities_patched_total : forall U ueq comp uid den,
  monoid_laws U ueq comp uid -> barrier_law U ueq uid den -> selfinv_law U ueq comp uid den ->
  forall c, ids_consistent (cgates c) -> Forall gate_ok (cgates c) ->
  exists c', remove_identities true true c = Ok c' /\ cn c' = cn c /\
             ueq (cden U comp uid den (cgates c')) (cden U comp uid den (cgates c)).
Proof.
  intros U ueq comp uid den HM HB HS c Hid Hok. destruct (ri_loop_total true (cgates c) []) as [r Hr].
  assert (E : remove_identities true true c = Ok (mkc (cn c) r)).
  { unfold remove_identities. now rewrite Hr. }
  exists (mkc (cn c) r). split; [exact E|].
  exact (L_remove_identities U ueq comp uid den HM HB HS true true c _ Hid Hok (pairs_self_inverse_true _) E).
Qed.
Print Assumptions C14_remove_identities_patched_total.

Theorem C14_patched_pairs_are_self_inverse : forall l, pairs_self_inverse true l.
Proof. exact pairs_self_inverse_true. Qed.
Print Assumptions C14_patched_pairs_are_self_inverse.

(* before fix cfe687c: one S object applied twice is removed although S;S = Z *)
Theorem C14_remove_identities_today_refuted :
  exists c', remove_identities false false ss_circ = Ok c' /\
             cgates c' = [mkq 0 (K1 BH) [1] PhNone] /\
             ~ mueq (mcden (cgates c')) (mcden (cgates ss_circ)).
Proof. exact remove_identities_ss_refuted. Qed.
Print Assumptions C14_remove_identities_today_refuted.

(* before fix 92769e9: IndexError when the first two gates are an identical pair *)
Theorem C14_remove_identities_today_index_error :
  remove_identities false false xx_circ = Err EIndex.
Proof. reflexivity. Qed.
Print Assumptions C14_remove_identities_today_index_error.

Theorem C14_remove_identities_patched_on_the_same_inputs :
  remove_identities true true ss_circ = Ok ss_circ /\
  remove_identities true true xx_circ = Ok (mkc 1 []).
Proof. split; reflexivity. Qed.
Print Assumptions C14_remove_identities_patched_on_the_same_inputs.

Theorem C14_iqft_inverts_qft : forall U ueq comp uid den,
  monoid_laws U ueq comp uid -> selfinv_law U ueq comp uid den ->
  cp_inv_law U ueq comp uid den -> swap_comm_law U ueq comp den ->
  forall strict c f1 f2 wl c1 c2, NoDup wl ->
  qc_qft strict c f1 wl = Ok c1 -> qc_iqft strict c1 f2 wl = Ok c2 ->
  cn c2 = cn c /\ ueq (cden U comp uid den (cgates c2)) (cden U comp uid den (cgates c)).
Proof.
  intros U ueq comp uid den HM HS HC HW strict c f1 f2 wl c1 c2 _.
  exact (L_iqft_inverts_qft U ueq comp uid den HM HS HC HW strict c f1 f2 wl c1 c2).
Qed.
Print Assumptions C14_iqft_inverts_qft.

Theorem C14_qft_iqft_succeed : forall strict c f1 f2 wl,
  NoDup wl -> Forall (fun q => q < cn c) wl ->
  exists c1 c2, qc_qft strict c f1 wl = Ok c1 /\ qc_iqft strict c1 f2 wl = Ok c2.
Proof.
  intros strict c f1 f2 wl Hnd Hr.
  pose proof (qft_gates_wf wl (cn c) Hnd Hr) as H. apply Forall_app in H as [Hq Hi].
  unfold qc_qft, qc_iqft. rewrite (qc_extend_number strict _ f1 c Hq).
  eexists. eexists. split; [reflexivity|]. now rewrite qc_extend_number.
Qed.
Print Assumptions C14_qft_iqft_succeed.

Theorem C14_iqft_is_reversed_inverted_qft : forall wl,
  iqft_gates wl = qft_swaps wl ++ map ginv (rev (qft_core wl)) /\
  qft_gates wl = qft_core wl ++ qft_swaps wl.
Proof. intros wl. split; [unfold iqft_gates; now rewrite iqft_core_inv|reflexivity]. Qed.
Print Assumptions C14_iqft_is_reversed_inverted_qft.

(* the laws hold in an exact semantics, so nothing above is vacuous *)
Theorem C14_instance_laws :
  monoid_laws mono mueq mcomp mid /\ rename_laws mono mueq mcomp mid mden mren /\
  barrier_law mono mueq mid mden /\ selfinv_law mono mueq mcomp mid mden /\
  cp_inv_law mono mueq mcomp mid mden /\ swap_comm_law mono mueq mcomp mden.
Proof.
  exact (conj mono_monoid (conj (conj mren_id (conj mren_comp mden_ren)) (conj mden_barrier (conj mden_selfinv
        (conj mden_cp_inv mden_swap_comm))))).
Qed.
Print Assumptions C14_instance_laws.

(* on the X/CX/CCX/MCX subset the instance is the classical simulation of Circ.v *)
Theorem C14_instance_is_classical : forall l f f',
  fsim f (map to_gate l) = Some f' -> forall q, mperm (mcden l) f q = f' q.
Proof. exact mono_agrees_fsim. Qed.
Print Assumptions C14_instance_is_classical.

Example C14_example_qft : exists c1 c2,
  qc_qft true (mkc 4 []) 0 [2; 0; 3] = Ok c1 /\ qc_iqft true c1 100 [2; 0; 3] = Ok c2 /\
  mueq (mcden (cgates c2)) (mcden []).
Proof.
  assert (Hnd : NoDup [2; 0; 3]) by (repeat constructor; cbn; intuition congruence).
  assert (Hr : Forall (fun q => q < cn (mkc 4 [])) [2; 0; 3]) by (repeat constructor).
  destruct (C14_qft_iqft_succeed true (mkc 4 []) 0 100 [2; 0; 3] Hnd Hr) as (c1 & c2 & H1 & H2).
  exists c1, c2. split; [exact H1|]. split; [exact H2|].
  exact (proj2 (L_iqft_inverts_qft mono mueq mcomp mid mden mono_monoid mden_selfinv mden_cp_inv
                  mden_swap_comm true (mkc 4 []) 0 100 [2; 0; 3] c1 c2 H1 H2)).
Qed.

Example C14_example_qft_length :
  match bind (qc_qft true (mkc 4 []) 0 [2; 0; 3]) (fun c1 => qc_iqft true c1 100 [2; 0; 3]) with
  | Ok c2 => length (cgates c2)
  | Err _ => 0
  end = 14.
Proof. vm_compute. reflexivity. Qed.

Example C14_example_append_circuit :
  let c := mkc 4 [mkq 0 (K1 BH) [3] PhNone] in
  let o := mkc 2 [mkq 1 KCX [0; 1] PhNone; mkq 2 (K1 BS) [1] PhNone] in
  qc_append_circuit c o [3; 1] =
    Ok (mkc 4 [mkq 0 (K1 BH) [3] PhNone; mkq 1 KCX [3; 1] PhNone; mkq 2 (K1 BS) [1] PhNone]) /\
  exists p, extends p [3; 1].
Proof. split; [reflexivity|]. apply extend_exists. repeat constructor; cbn; intuition congruence. Qed.

Example C14_example_remove_identities :
  let x := mkq 7 (K1 BX) [0] PhNone in
  let b := mkq 8 KBarrier [] PhNone in
  let h := mkq 9 (K1 BH) [1] PhNone in
  remove_identities true true (mkc 2 [h; b; x; b; x; h]) = Ok (mkc 2 [h; h]) /\
  remove_identities false false (mkc 2 [h; b; x; b; x; h]) = Ok (mkc 2 [h; h]).
Proof. split; reflexivity. Qed.
