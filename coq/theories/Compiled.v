(* Compiled.v — verified decision procedures for a compiled function:
   C02 (outputs hold the return expressions), C03 (inputs preserved, scratch
   zero), C06 (xor-oracle).  Each evaluates the real gate list and the real
   expression list on ALL basis inputs at once (packed truth tables) and is
   proved sound and complete against the per-input reference semantics. *)
From Coq Require Import List Bool NArith Arith Lia.
From QV Require Import Bits Bexp BexpTT Circ.
Import ListNotations.
Local Open Scope N_scope.

Definition mem_nat (q : nat) (l : list nat) : bool := existsb (Nat.eqb q) l.
Lemma mem_nat_in q l : mem_nat q l = true <-> In q l.
Proof. apply existsb_eqb_in. Qed.

Definition all_classical (c : circuit) : bool :=
  forallb (fun g => match cact_of g with CNone => false | _ => true end) c.

Lemma sim_some (A : balg) c : forall s, (exists ft, sim A s c = Some ft) <-> all_classical c = true.
Proof.
  induction c as [|g c IH]; intros s; cbn [sim all_classical forallb].
  - split; [reflexivity|]. intros _. now exists s.
  - destruct (cact_of g); cbn [andb]; [apply IH|apply IH|].
    split; [intros [ft H]; discriminate|discriminate].
Qed.

Lemma fsim_some c : forall f, all_classical c = true -> exists f', fsim f c = Some f'.
Proof.
  induction c as [|g c IH]; intros f; cbn [fsim all_classical forallb]; [intros _; now exists f|].
  destruct (cact_of g); cbn [andb]; [apply IH|apply IH|discriminate].
Qed.

(* the computational basis state holding x on the first n qubits, zero elsewhere *)
Definition basis (n : nat) (x : N) : nat -> bool :=
  fun q => if Nat.ltb q n then N.testbit x (N.of_nat q) else false.

Definition init_tables (n nq : nat) : list N := input_tables n ++ repeat 0 (nq - n).

Lemma proj_init n nq x q : x < pow2n n -> proj x (init_tables n nq) q = basis n x q.
Proof.
  intros Hx. unfold proj, basis, init_tables.
  destruct (Nat.ltb_spec q n) as [Hq|Hq].
  - rewrite app_nth1 by (rewrite input_tables_length; exact Hq). now apply input_tables_spec.
  - rewrite app_nth2 by (rewrite input_tables_length; exact Hq). rewrite nth_repeat. apply N.bits_0.
Qed.

Lemma basis_asg n x i : x < pow2n n -> basis n x i = asg x i.
Proof.
  intros Hx. unfold basis. destruct (Nat.ltb_spec i n) as [Hi|Hi]; [reflexivity|].
  symmetry. now apply (asg_high n).
Qed.

Definition expr_tables (n : nat) (ds : defs) : list N :=
  run_defs_tt (tt_mask n) (input_tables n) ds.

Lemma expr_tables_spec n ds x s : x < pow2n n ->
  N.testbit (tenv (expr_tables n ds) s) x = run_defs (asg x) ds s.
Proof.
  intros Hx. unfold expr_tables. rewrite run_defs_tt_spec by now apply mask_lt.
  apply run_defs_ext. intros i. now apply tenv_input.
Qed.

(* The table check read per basis input: `b x` is the reference start state that the initial
   tables hold at assignment x, `R x` the property of the final state that the expected
   tables express there. The three checkers below are instances. *)
Lemma check_basis_iff n init c expected (b : N -> nat -> bool) (R : N -> (nat -> bool) -> Prop) :
  (forall x, x < pow2n n -> forall q, proj x init q = b x q) ->
  (forall x, x < pow2n n -> forall f g, (forall q, f q = g q) ->
     ((forall q e, In (q, e) expected -> f q = N.testbit e x) <-> R x g)) ->
  (check_circuit (tt_mask n) init c expected = Some 0 <->
   all_classical c = true /\ forall x, x < pow2n n -> exists f, fsim (b x) c = Some f /\ R x f).
Proof.
  intros Hinit HR. rewrite check_circuit_spec, sim_some. apply and_iff_compat_l.
  split; intros H x Hx.
  - destruct (H x (proj2 (mask_lt n x) Hx)) as (f & Hf & Hp).
    pose proof (fsim_ext c _ _ (Hinit x Hx)) as He. rewrite Hf in He.
    destruct (fsim (b x) c) as [g|]; [|contradiction]. exists g. split; [reflexivity|]. now apply (HR x Hx f g He).
  - apply mask_lt in Hx. destruct (H x Hx) as (g & Hg & Hp).
    pose proof (fsim_ext c _ _ (Hinit x Hx)) as He. rewrite Hg in He.
    destruct (fsim (proj x init) c) as [f|]; [|contradiction]. exists f. split; [reflexivity|]. now apply (HR x Hx f g He).
Qed.

(* rets: (return symbol, qubit it is mapped to) *)
Definition c02_expected (n : nat) (ds : defs) (rets : list (nat * nat)) : list (nat * N) :=
  map (fun sq => (snd sq, tenv (expr_tables n ds) (fst sq))) rets.
Definition c02_check (n nq : nat) (c : circuit) (ds : defs) (rets : list (nat * nat)) : option N :=
  check_circuit (tt_mask n) (init_tables n nq) c (c02_expected n ds rets).

Definition c02_holds (n : nat) (c : circuit) (ds : defs) (rets : list (nat * nat)) : Prop :=
  forall x, x < pow2n n ->
    exists f, fsim (basis n x) c = Some f /\
      forall s q, In (s, q) rets -> f q = run_defs (asg x) ds s.

Theorem c02_check_correct n nq c ds rets :
  c02_check n nq c ds rets = Some 0 <-> all_classical c = true /\ c02_holds n c ds rets.
Proof.
  apply (check_basis_iff n _ c _ (basis n) (fun x f => forall s q, In (s, q) rets -> f q = run_defs (asg x) ds s)).
  - intros x Hx q. now apply proj_init.
  - intros x Hx f g Hfg. unfold c02_expected. split.
    + intros He s q Hin. rewrite <- Hfg, (He q (tenv (expr_tables n ds) s)); [now apply expr_tables_spec|].
      apply in_map_iff. now exists (s, q).
    + intros He q e Hin. apply in_map_iff in Hin as ([s q'] & [= <- <-] & Hin).
      rewrite Hfg, (He s q' Hin). symmetry. now apply expr_tables_spec.
Qed.

Definition c03_expected (n nq : nat) (outs : list nat) : list (nat * N) :=
  map (fun q => (q, var_tt n q)) (seq 0 n) ++
  map (fun q => (q, 0)) (filter (fun q => negb (mem_nat q outs)) (seq n (nq - n))).
Definition c03_check (n nq : nat) (c : circuit) (outs : list nat) : option N :=
  check_circuit (tt_mask n) (init_tables n nq) c (c03_expected n nq outs).

Definition c03_holds (n nq : nat) (c : circuit) (outs : list nat) : Prop :=
  forall x, x < pow2n n ->
    exists f, fsim (basis n x) c = Some f /\
      (forall q, (q < n)%nat -> f q = N.testbit x (N.of_nat q)) /\
      (forall q, (n <= q < nq)%nat -> ~ In q outs -> f q = false).

Theorem c03_check_correct n nq c outs :
  c03_check n nq c outs = Some 0 <-> all_classical c = true /\ c03_holds n nq c outs.
Proof.
  apply (check_basis_iff n _ c _ (basis n) (fun x f =>
           (forall q, (q < n)%nat -> f q = N.testbit x (N.of_nat q)) /\
           (forall q, (n <= q < nq)%nat -> ~ In q outs -> f q = false))).
  - intros x Hx q. now apply proj_init.
  - intros x Hx f g Hfg. unfold c03_expected. split.
    + intros He. split.
      * intros q Hq. rewrite <- Hfg, (He q (var_tt n q)); [now apply var_tt_asg|].
        apply in_or_app. left. apply in_map_iff. exists q. split; [reflexivity|apply in_seq; lia].
      * intros q Hq Hout. rewrite <- Hfg, (He q 0); [apply N.bits_0|].
        apply in_or_app. right. apply in_map_iff. exists q. split; [reflexivity|].
        apply filter_In. split; [apply in_seq; lia|].
        destruct (mem_nat q outs) eqn:E; [|reflexivity]. apply mem_nat_in in E. contradiction.
    + intros [Hin Hz] q e Hq. apply in_app_or in Hq as [Hq|Hq]; apply in_map_iff in Hq as (q' & [= <- <-] & Hq).
      * apply in_seq in Hq. rewrite Hfg, Hin by lia. symmetry. apply var_tt_asg; [lia|exact Hx].
      * apply filter_In in Hq as [Hq Hn]. apply in_seq in Hq. rewrite Hfg, Hz; [now rewrite N.bits_0|lia|].
        intros Hc. apply mem_nat_in in Hc. now rewrite Hc in Hn.
Qed.

(* variable n of the tables is the initial value y of the output qubit;
   the expression list must not mention symbol n (checked) *)
Definition defs_avoid (k : nat) (ds : defs) : bool :=
  forallb (fun se => negb (Nat.eqb (fst se) k) && negb (mem_nat k (bsyms (snd se)))) ds.

Lemma run_defs_avoid k ds : defs_avoid k ds = true -> forall env1 env2,
  (forall i, i <> k -> env1 i = env2 i) -> forall s, s <> k -> run_defs env1 ds s = run_defs env2 ds s.
Proof.
  induction ds as [|[s0 e0] ds IH]; intros Ha env1 env2 H s Hs; [now apply H|].
  cbn [defs_avoid forallb fst snd] in Ha. apply andb_true_iff in Ha as [Ha1 Ha2].
  apply andb_true_iff in Ha1 as [Hs0 He0]. rewrite !run_defs_cons. apply IH; [exact Ha2| |exact Hs].
  intros i Hi. destruct (Nat.eqb i s0); [|now apply H].
  unfold beval. apply (geval_ext bool_alg). intros j Hj. apply H. intros ->.
  apply negb_true_iff in He0. assert (mem_nat k (bsyms e0) = true) by now apply mem_nat_in. congruence.
Qed.

Definition c06_init (n nq out : nat) : list N :=
  map (fun q => if Nat.ltb q n then var_tt (S n) q else if Nat.eqb q out then var_tt (S n) n else 0) (seq 0 nq).
Definition c06_expected (n nq out : nat) (ds : defs) (ret : nat) : list (nat * N) :=
  let et := expr_tables (S n) ds in
  map (fun q => (q, if Nat.ltb q n then var_tt (S n) q
                    else if Nat.eqb q out then N.lxor (var_tt (S n) n) (tenv et ret) else 0)) (seq 0 nq).
Definition c06_check (n nq : nat) (c : circuit) (ds : defs) (ret out : nat) : option N :=
  if defs_avoid n ds && negb (Nat.eqb ret n)
  then check_circuit (tt_mask (S n)) (c06_init n nq out) c (c06_expected n nq out ds ret)
  else None.

(* inputs x on qubits 0..n-1, y on the output qubit, zero elsewhere *)
Definition basis6 (n out : nat) (x : N) (y : bool) : nat -> bool :=
  fun q => if Nat.ltb q n then N.testbit x (N.of_nat q) else if Nat.eqb q out then y else false.

Definition c06_holds (n nq : nat) (c : circuit) (ds : defs) (ret out : nat) : Prop :=
  forall x, x < pow2n n -> forall y : bool,
    exists f, fsim (basis6 n out x y) c = Some f /\
      forall q, (q < nq)%nat ->
        f q = if Nat.ltb q n then N.testbit x (N.of_nat q)
              else if Nat.eqb q out then xorb y (run_defs (asg x) ds ret) else false.

(* An assignment X of the n+1 table variables is the pair (x, y) = (X mod 2^n, bit n of X);
   pack is the inverse. *)
Definition pack (n : nat) (x : N) (y : bool) : N := x + N.b2n y * pow2n n.

Lemma pack_lt n x y : x < pow2n n -> pack n x y < pow2n (S n).
Proof. intros H. unfold pack. rewrite pow2n_S. destruct y; cbn [N.b2n]; lia. Qed.

Lemma pack_mod n x y : x < pow2n n -> pack n x y mod pow2n n = x.
Proof.
  intros Hx. unfold pack, pow2n in *. rewrite N.mod_add by apply pow2_nz. now apply N.mod_small.
Qed.

Lemma pack_top n x y : x < pow2n n -> N.testbit (pack n x y) (N.of_nat n) = y.
Proof.
  intros Hx. unfold pack, pow2n in *. destruct y; cbn [N.b2n].
  - apply testbit_top; lia.
  - rewrite N.mul_0_l, N.add_0_r. now apply testbit_small.
Qed.

Lemma forall_unpack n (P : N -> bool -> Prop) :
  (forall X, X < pow2n (S n) -> P (X mod pow2n n) (N.testbit X (N.of_nat n))) <->
  (forall x, x < pow2n n -> forall y, P x y).
Proof.
  split.
  - intros H x Hx y. specialize (H (pack n x y) (pack_lt n x y Hx)). now rewrite pack_mod, pack_top in H.
  - intros H X _. apply H, N.mod_lt, pow2_nz.
Qed.

Lemma asg_mod n X i : X < pow2n (S n) -> i <> n -> asg (X mod pow2n n) i = asg X i.
Proof.
  intros HX Hi. unfold asg, pow2n. destruct (Nat.ltb_spec i n) as [Hlt|Hge].
  - apply N.mod_pow2_bits_low. lia.
  - rewrite N.mod_pow2_bits_high by lia. symmetry. apply (asg_high (S n) X i HX). lia.
Qed.

(* one row of the C06 tables read at X: qubits below n hold the bits of x = X mod 2^n, the output
   qubit holds whatever its table T holds, all others 0 *)
Lemma c06_row n out T X q : X < pow2n (S n) ->
  N.testbit (if Nat.ltb q n then var_tt (S n) q else if Nat.eqb q out then T else 0) X
  = if Nat.ltb q n then N.testbit (X mod pow2n n) (N.of_nat q) else if Nat.eqb q out then N.testbit T X else false.
Proof.
  intros HX. destruct (Nat.ltb_spec q n) as [Hlt|Hge].
  - rewrite var_tt_asg by (try lia; exact HX). symmetry. apply N.mod_pow2_bits_low. lia.
  - destruct (Nat.eqb q out); [reflexivity|apply N.bits_0].
Qed.

Theorem c06_check_correct n nq c ds ret out :
  (n <= out < nq)%nat ->
  (c06_check n nq c ds ret out = Some 0 <->
   defs_avoid n ds = true /\ ret <> n /\ all_classical c = true /\ c06_holds n nq c ds ret out).
Proof.
  intros Ho. unfold c06_check.
  destruct (defs_avoid n ds) eqn:Hav; cbn [andb];
    [|split; [discriminate|intros [H _]; discriminate]].
  destruct (Nat.eqb_spec ret n) as [->|Hret]; cbn [negb];
    [split; [discriminate|intros (_ & H & _); now contradiction H]|].
  transitivity (all_classical c = true /\ c06_holds n nq c ds ret out); [|intuition].
  pose (R := fun (x : N) (y : bool) (f : nat -> bool) => forall q, (q < nq)%nat ->
          f q = if Nat.ltb q n then N.testbit x (N.of_nat q)
                else if Nat.eqb q out then xorb y (run_defs (asg x) ds ret) else false).
  (* the table check over n+1 variables, read per assignment X; then X as the pair (x, y) *)
  etransitivity;
    [apply (check_basis_iff (S n) _ c _ (fun X => basis6 n out (X mod pow2n n) (N.testbit X (N.of_nat n)))
              (fun X => R (X mod pow2n n) (N.testbit X (N.of_nat n))))
    |apply and_iff_compat_l, (forall_unpack n (fun x y => exists f, fsim (basis6 n out x y) c = Some f /\ R x y f))].
  - intros X HX q. unfold proj, c06_init, basis6.
    destruct (Nat.ltb_spec q nq) as [Hq|Hq].
    + rewrite nth_map_seq, c06_row by assumption.
      destruct (Nat.ltb q n); [reflexivity|]. destruct (Nat.eqb q out); [|reflexivity].
      apply var_tt_asg; [lia|exact HX].
    + rewrite nth_overflow by (rewrite map_length, seq_length; exact Hq). rewrite N.bits_0.
      destruct (Nat.ltb_spec q n); [lia|]. destruct (Nat.eqb_spec q out); [lia|reflexivity].
  - intros X HX f g Hfg. unfold R.
    assert (Hexp : forall q,
              N.testbit (if Nat.ltb q n then var_tt (S n) q
                         else if Nat.eqb q out then N.lxor (var_tt (S n) n) (tenv (expr_tables (S n) ds) ret) else 0) X
              = if Nat.ltb q n then N.testbit (X mod pow2n n) (N.of_nat q)
                else if Nat.eqb q out
                     then xorb (N.testbit X (N.of_nat n)) (run_defs (asg (X mod pow2n n)) ds ret) else false).
    { intros q. rewrite c06_row by exact HX.
      destruct (Nat.ltb q n); [reflexivity|]. destruct (Nat.eqb q out); [|reflexivity].
      rewrite N.lxor_spec, var_tt_asg, expr_tables_spec by (try lia; exact HX). f_equal.
      apply (run_defs_avoid n ds Hav); [|exact Hret]. intros i Hi. symmetry. now apply asg_mod. }
    unfold c06_expected. split.
    + intros He q Hq. rewrite <- Hfg, <- Hexp. apply He.
      apply in_map_iff. exists q. split; [reflexivity|apply in_seq; lia].
    + intros He q e Hin. apply in_map_iff in Hin as (q' & [= <- <-] & Hin). apply in_seq in Hin.
      rewrite Hfg, He, Hexp by lia. reflexivity.
Qed.

(* what a passing check gives: the form in which the per-program decisions of the harness
   enter the theorems about compiled programs and algorithm circuits *)
Lemma c02_checked n nq c ds rets : c02_check n nq c ds rets = Some 0 -> c02_holds n c ds rets.
Proof. intros H. now apply c02_check_correct in H. Qed.
Lemma c03_checked n nq c outs : c03_check n nq c outs = Some 0 -> c03_holds n nq c outs.
Proof. intros H. now apply c03_check_correct in H. Qed.
Lemma c06_checked n nq c ds ret out : (n <= out < nq)%nat ->
  c06_check n nq c ds ret out = Some 0 -> c06_holds n nq c ds ret out.
Proof. intros Ho H. now apply (c06_check_correct n nq c ds ret out Ho) in H. Qed.
