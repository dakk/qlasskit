(* P_A2A.v — proofs about the model of qlasskit's source-to-source normaliser (M_A2A.v).

   Inside the decidable guard a2a_guard, whenever the NORMALISED program returns a value the
   ORIGINAL program returns the same value (every environment, every interpretation of
   non-builtin calls); and whatever the passes return is in the normal form the translator expects.
   Pass by pass: ConstantFolder keeps the outcome; ReplaceMultiTargetAssign and ASTRewriter
   (if-flattening, temporaries of self-referencing assignments, augmented assignments, loop
   unrolling) are backward simulations [bsim].  On expressions the three transformers (fold_exp,
   rw_exp, subst_exp) are handled alike: what each returns for a guarded expression [stands] for it. *)
From Coq Require Import List Bool NArith ZArith Arith String Ascii Lia HexadecimalString HexadecimalN.
From QV Require Import Bits M_A2A.
Import ListNotations.
Local Open Scope string_scope.
Local Open Scope list_scope.

Section ExpInd.
  Variable P : exp -> Prop.
  Hypothesis HName : forall x, P (EName x).
  Hypothesis HConst : forall c, P (EConst c).
  Hypothesis HConstNode : forall e, P e -> P (EConstNode e).
  Hypothesis HBoolOp : forall op l, Forall P l -> P (EBoolOp op l).
  Hypothesis HBinOp : forall op a b, P a -> P b -> P (EBinOp op a b).
  Hypothesis HUnOp : forall op a, P a -> P (EUnOp op a).
  Hypothesis HCompare : forall op a b, P a -> P b -> P (ECompare op a b).
  Hypothesis HIfExp : forall c t f, P c -> P t -> P f -> P (EIfExp c t f).
  Hypothesis HTuple : forall l, Forall P l -> P (ETuple l).
  Hypothesis HList : forall l, Forall P l -> P (EList l).
  Hypothesis HSubscript : forall v s, P v -> P s -> P (ESubscript v s).
  Hypothesis HCall : forall f args, Forall P args -> P (ECall f args).

  Fixpoint exp_ind2 (e : exp) : P e :=
    let go := fix go (l : list exp) : Forall P l :=
                match l with
                | [] => Forall_nil P
                | x :: r => Forall_cons x (exp_ind2 x) (go r)
                end in
    match e with
    | EName x => HName x
    | EConst c => HConst c
    | EConstNode e' => HConstNode e' (exp_ind2 e')
    | EBoolOp op l => HBoolOp op l (go l)
    | EBinOp op a b => HBinOp op a b (exp_ind2 a) (exp_ind2 b)
    | EUnOp op a => HUnOp op a (exp_ind2 a)
    | ECompare op a b => HCompare op a b (exp_ind2 a) (exp_ind2 b)
    | EIfExp c t f => HIfExp c t f (exp_ind2 c) (exp_ind2 t) (exp_ind2 f)
    | ETuple l => HTuple l (go l)
    | EList l => HList l (go l)
    | ESubscript v s => HSubscript v s (exp_ind2 v) (exp_ind2 s)
    | ECall f args => HCall f args (go args)
    end.
End ExpInd.

Section StmtInd.
  Variable P : stmt -> Prop.
  Hypothesis HAssign : forall t e, P (SAssign t e).
  Hypothesis HAug : forall x op e, P (SAugAssign x op e).
  Hypothesis HIf : forall c b o, Forall P b -> Forall P o -> P (SIf c b o).
  Hypothesis HFor : forall x it b o, Forall P b -> Forall P o -> P (SFor x it b o).
  Hypothesis HReturn : forall e, P (SReturn e).
  Hypothesis HExpr : forall e, P (SExpr e).

  Fixpoint stmt_ind2 (s : stmt) : P s :=
    let go := fix go (l : list stmt) : Forall P l :=
                match l with
                | [] => Forall_nil P
                | x :: r => Forall_cons x (stmt_ind2 x) (go r)
                end in
    match s with
    | SAssign t e => HAssign t e
    | SAugAssign x op e => HAug x op e
    | SIf c b o => HIf c b o (go b) (go o)
    | SFor x it b o => HFor x it b o (go b) (go o)
    | SReturn e => HReturn e
    | SExpr e => HExpr e
    end.
End StmtInd.

Lemma bind_ok {A B} (x : res A) (f : A -> res B) b :
  bind x f = Ok b -> exists a, x = Ok a /\ f a = Ok b.
Proof. destruct x; simpl; intro H; try discriminate. eauto. Qed.

(* from [H : bind x f = Ok b]: the result [a] of [x] (or its components, by a pattern), [Ha : x = Ok a],
   and [H : f a = Ok b] *)
Tactic Notation "inv_bind" hyp(H) :=
  let a := fresh "a" in let Ha := fresh "Ha" in
  apply bind_ok in H; destruct H as (a & Ha & H).
Tactic Notation "inv_bind" hyp(H) "as" simple_intropattern(p) :=
  let Ha := fresh "Ha" in apply bind_ok in H; destruct H as (p & Ha & H).

Lemma mapM_ok {A B} (f : A -> res B) l l' :
  mapM f l = Ok l' -> Forall2 (fun x y => f x = Ok y) l l'.
Proof.
  revert l'; induction l as [|x r IH]; simpl; intros l' H.
  - inversion H; constructor.
  - inv_bind H. inv_bind H. inversion H; subst. constructor; auto.
Qed.

Lemma flat_mapM_ok {A B} (f : A -> res (list B)) l l' :
  flat_mapM f l = Ok l' -> exists ls, Forall2 (fun x y => f x = Ok y) l ls /\ l' = List.concat ls.
Proof.
  revert l'; induction l as [|x r IH]; simpl; intros l' H.
  - inversion H. exists []. split; [constructor|reflexivity].
  - inv_bind H. inv_bind H. inversion H; subst.
    destruct (IH _ Ha0) as (ls & F & E). exists (a :: ls). split; [constructor; auto|].
    simpl. now rewrite E.
Qed.

Lemma flat_mapM_forallb {A B} (f : A -> res (list B)) (q : B -> bool) l :
  Forall (fun a => forall m, f a = Ok m -> forallb q m = true) l ->
  forall l', flat_mapM f l = Ok l' -> forallb q l' = true.
Proof.
  intros F l' H. destruct (flat_mapM_ok _ _ _ H) as (ls & F2 & ->). clear H.
  induction F2 as [|a m l ls Ha _ IH]; inversion F; subst; simpl; auto.
  rewrite forallb_app. now rewrite (H1 _ Ha), IH.
Qed.

Lemma all_some_map_ext {A B C} (f : A -> option C) (g : B -> option C) l l' :
  Forall2 (fun a b => f a = g b) l l' -> all_some (map f l) = all_some (map g l').
Proof. induction 1; simpl; auto. rewrite H, IHForall2. reflexivity. Qed.

Lemma Forall2_length {A B} (R : A -> B -> Prop) l l' : Forall2 R l l' -> List.length l = List.length l'.
Proof. induction 1; simpl; auto. Qed.

Lemma andb3_true a b c : a && b && c = true -> a = true /\ b = true /\ c = true.
Proof. destruct a, b, c; auto. Qed.

Lemma andb5_true a b c d e :
  a && b && c && d && e = true -> a = true /\ b = true /\ c = true /\ d = true /\ e = true.
Proof. destruct a, b, c, d, e; simpl; auto 6. Qed.

Lemma forallb_impl {A} (p q : A -> bool) l :
  Forall (fun a => p a = true -> q a = true) l -> forallb p l = true -> forallb q l = true.
Proof.
  induction 1 as [|a l Ha _ IH]; simpl; auto.
  intro G. apply andb_true_iff in G as [Ga Gl]. now rewrite Ha, IH.
Qed.

Lemma existsb_false_impl {A} (p q : A -> bool) l :
  Forall (fun a => p a = true -> q a = false) l -> forallb p l = true -> existsb q l = false.
Proof.
  induction 1 as [|a l Ha _ IH]; simpl; auto.
  intro G. apply andb_true_iff in G as [Ga Gl]. now rewrite Ha, IH.
Qed.

Lemma all_some_length {A} (l : list (option A)) vs : all_some l = Some vs -> List.length vs = List.length l.
Proof.
  revert vs; induction l as [|[a|] l IH]; simpl; intros vs H; try discriminate.
  - now inversion H.
  - destruct (all_some l); try discriminate. inversion H. simpl. f_equal. auto.
Qed.

Lemma forallb_false_ex {A} (f : A -> bool) l : forallb f l = false -> exists z, List.In z l /\ f z = false.
Proof.
  induction l; simpl; try discriminate. intro H. apply andb_false_iff in H. destruct H as [H|H]; eauto.
  destruct (IHl H) as (z & I & F). eauto.
Qed.

Lemma Forall_inst {A B} (P : A -> B -> Prop) l b : Forall (fun a => forall b, P a b) l -> Forall (fun a => P a b) l.
Proof. apply Forall_impl. auto. Qed.

Lemma Forall2_diag {A} (R : A -> A -> Prop) (p : A -> bool) l :
  Forall (fun a => p a = true -> R a a) l -> forallb p l = true -> Forall2 R l l.
Proof.
  induction 1 as [|a l Ha _ IH]; simpl; intro G; constructor; apply andb_true_iff in G as [Ga Gl]; auto.
Qed.

Lemma mapM_Forall2 {A B} (f : A -> res B) (p : A -> bool) (R : A -> B -> Prop) l :
  Forall (fun a => forall b, p a = true -> f a = Ok b -> R a b) l ->
  forall l', forallb p l = true -> mapM f l = Ok l' -> Forall2 R l l'.
Proof.
  induction 1 as [|a l Ha _ IH]; simpl; intros l' G H.
  - inversion H. constructor.
  - apply andb_true_iff in G as [Ga Gl]. inv_bind H. inv_bind H. inversion H; subst. constructor; auto.
Qed.

Lemma mapM_all {A B} (f : A -> res B) (p : A -> bool) (R : A -> B -> Prop) :
  (forall a b, p a = true -> f a = Ok b -> R a b) ->
  forall l l', forallb p l = true -> mapM f l = Ok l' -> Forall2 R l l'.
Proof. intros H l. apply mapM_Forall2, Forall_forall. intros a _ b. apply H. Qed.

Lemma boolop_with_ext (f g : exp -> option val) op l l' :
  Forall2 (fun a b => f a = g b) l l' -> boolop_with f op l = boolop_with g op l'.
Proof.
  induction 1 as [|a b l l' Hab F IH]; simpl; auto.
  inversion F; subst.
  - exact Hab.
  - rewrite Hab. destruct (g b); auto. rewrite IH. reflexivity.
Qed.

Lemma boolop_with_cons2 (ev : exp -> option val) op x y r :
  boolop_with ev op (x :: y :: r) =
  match ev x with
  | Some v => if (match op with And => negb (truthy v) | Or => truthy v end) then Some v else boolop_with ev op (y :: r)
  | None => None
  end.
Proof. reflexivity. Qed.

(* [plen] gives the typed tuple arguments (annotation Tuple[...]) with their length; they are
   user names and are never re-bound (the guard), so they keep the value [rho0] gives them. *)
Section Typed.
  Variable plen : string -> option nat.
  Notation prot := (M_A2A.prot plen).
  Hypothesis prot_user : forall a, prot a = true -> user_name a = true.
  Variable rho0 : env.
  Hypothesis conf0 : forall a n, plen a = Some n -> exists vs, rho0 a = Some (VTup vs) /\ List.length vs = n.
  Variable pbool : string -> bool.
  Hypothesis confb0 : forall a, pbool a = true -> exists vs, rho0 a = Some (VTup vs) /\ forallb is_vbool vs = true.
  Variable pint : string -> bool.
  Hypothesis confi0 : forall a, pint a = true -> exists vs, rho0 a = Some (VTup vs) /\ forallb is_vint vs = true.
  (* the protected names still have their initial value *)
  Definition Inv (r : env) : Prop := forall a, prot a = true -> r a = rho0 a.

Lemma plen_prot a n : plen a = Some n -> prot a = true.
Proof. unfold M_A2A.prot. now intros ->. Qed.

Lemma cst_of_exp_some e c : cst_of_exp e = Some c -> e = EConst c.
Proof. destruct e; simpl; intro H; try discriminate. now inversion H. Qed.

Lemma cst_of_val_ok v k : cst_of_val v = Ok k -> val_of_cst k = Some v /\ valued k = true.
Proof. destruct v; simpl; intro H; inversion H; auto. Qed.

Lemma valued_val c : valued c = true -> exists v, val_of_cst c = Some v.
Proof. destruct c; simpl; intro H; try discriminate; eauto. Qed.

(* when the builtin f(a) of a sequence [a] of [n] elements is its expansion over the elements
   ([isb] / [isi]: the elements are all booleans / all integers): the guard asks it of the annotation
   of a typed tuple argument, the expansion needs it of the value *)
Definition kind_ok (f : string) (n : nat) (isb isi : Prop) : Prop :=
  f = "len" \/ (f = "sum" /\ (2 <= n)%nat) \/
  ((f = "all" \/ f = "any") /\ (1 <= n)%nat /\ isb) \/
  ((f = "min" \/ f = "max") /\ (1 <= n)%nat /\ (isb \/ isi)).

Lemma kind_ok_mono f n (b i b' i' : Prop) : (b -> b') -> (i -> i') -> kind_ok f n b i -> kind_ok f n b' i'.
Proof.
  intros Hb Hi [H|[H|[(H & L & B)|(H & L & K)]]].
  - left; exact H.
  - right; left; exact H.
  - right; right; left. auto.
  - right; right; right. destruct K; auto.
Qed.

Lemma typed_call_inv okn f args :
  typed_call okn plen pbool pint f args = true ->
  exists a n, args = [EName a] /\ okn a = true /\ plen a = Some n /\ kind_ok f n (pbool a = true) (pint a = true).
Proof.
  unfold typed_call. destruct args as [|e r]; [discriminate|]. destruct e; try discriminate.
  destruct r; [|discriminate]. intro H.
  apply andb_true_iff in H as [Ox H]. destruct (plen x) as [n|] eqn:Px; try discriminate.
  exists x, n. repeat split; auto.
  (* the four alternatives of the guard, in its order *)
  apply orb_true_iff in H as [H|H]; [apply orb_true_iff in H as [H|H]; [apply orb_true_iff in H as [H|H]|]|].
  - left. now apply String.eqb_eq.
  - right; left. apply andb_true_iff in H as [H1 H2]. split; [now apply String.eqb_eq|now apply Nat.leb_le].
  - right; right; left. apply andb3_true in H as (H1 & H2 & H3).
    split; [|split; [now apply Nat.leb_le|exact H3]].
    apply orb_true_iff in H1 as [H1|H1]; [left|right]; now apply String.eqb_eq.
  - right; right; right. apply andb3_true in H as (H1 & H2 & H3).
    split; [|split; [now apply Nat.leb_le|now apply orb_true_iff]].
    apply orb_true_iff in H1 as [H1|H1]; [left|right]; now apply String.eqb_eq.
Qed.

Lemma fold_typed_call f y : fold_exp (ECall f [EName y]) = Ok (ECall f [EName y]).
Proof. cbn [fold_exp mapM bind]. destruct (existsb (String.eqb f) builtin_funcs); reflexivity. Qed.

Lemma special_not_builtin f :
  existsb (String.eqb f) special_calls = false -> existsb (String.eqb f) builtin_funcs = false.
Proof.
  unfold special_calls, builtin_funcs. simpl. intro H.
  repeat (apply orb_false_iff in H; destruct H as [? H]).
  repeat (apply orb_false_iff; split); auto.
Qed.

Lemma index_list_map {A B} (f : A -> B) l z :
  index_list (map f l) z = option_map f (index_list l z).
Proof.
  unfold index_list. rewrite map_length.
  destruct (_ && _). { apply nth_error_map. }
  destruct (_ && _). { apply nth_error_map. } reflexivity.
Qed.

Lemma index_list_in {A} (l : list A) z x : index_list l z = Some x -> List.In x l.
Proof.
  unfold index_list. destruct (_ && _). { apply nth_error_In. }
  destruct (_ && _). { apply nth_error_In. } discriminate.
Qed.

Lemma all_some_Some {A} (vs : list A) : all_some (map Some vs) = Some vs.
Proof. induction vs; simpl; auto. now rewrite IHvs. Qed.

(* the clause of [gexp] on the index of a subscript *)
Definition gidx (okn : string -> bool) (lv : list string) (s : exp) : bool :=
  match s with
  | EConst c => valued c
  | EName i => okn i && existsb (String.eqb i) lv
  | _ => false
  end.

Lemma gidx_gexp okn lv s : gidx okn lv s = true -> gexp okn plen pbool pint lv s = true.
Proof. destruct s; try discriminate; simpl; auto. intro H. now apply andb_true_iff in H as [H _]. Qed.

Lemma gidx_fold okn lv s : gidx okn lv s = true -> fold_exp s = Ok s.
Proof. destruct s; try discriminate; reflexivity. Qed.

Section Stands.
  Variable ext : string -> list val -> option val.
  Notation eval := (eval ext).
  (* the environments considered; the names and the loop variables [e'] may mention *)
  Variable Iv : env -> Prop.
  Variable okn : string -> bool.
  Variable lv : list string.
  Notation guard := (gexp okn plen pbool pint lv).

  (* [e'] stands for [e]: it is inside the guard and has the value of [e].  Each pass is shown
     to return, for a guarded expression, one that stands for it; the lemmas below say that
     this goes through every node. *)
  Definition stands (e e' : exp) : Prop :=
    (forall rho, Iv rho -> eval rho e' = eval rho e) /\ guard e' = true.

  Lemma stands_refl e : guard e = true -> stands e e.
  Proof. split; auto. Qed.

  Lemma stands_trans e1 e2 e3 : stands e1 e2 -> stands e2 e3 -> stands e1 e3.
  Proof. intros [E1 _] [E2 G]. split; auto. intros rho J. now rewrite (E2 _ J), (E1 _ J). Qed.

  Lemma stands_evals l l' rho :
    Forall2 stands l l' -> Iv rho -> Forall2 (fun a b => eval rho a = eval rho b) l l'.
  Proof. intros F J. induction F as [|a b l l' [E _] _ IH]; constructor; auto. symmetry; auto. Qed.

  Lemma stands_guards l l' : Forall2 stands l l' -> forallb guard l' = true.
  Proof. induction 1 as [|a b l l' [_ G] _ IH]; simpl; auto. now rewrite G. Qed.

  Lemma stands_args l l' rho :
    Forall2 stands l l' -> Iv rho -> all_some (map (eval rho) l') = all_some (map (eval rho) l).
  Proof. intros F J. symmetry. apply all_some_map_ext, (stands_evals _ _ _ F J). Qed.

  Lemma stands_boolop op l l' : Forall2 stands l l' -> stands (EBoolOp op l) (EBoolOp op l').
  Proof.
    intro F. split; [|exact (stands_guards _ _ F)].
    intros rho J. cbn [M_A2A.eval]. symmetry. apply boolop_with_ext, (stands_evals _ _ _ F J).
  Qed.

  (* a list literal evaluates as the tuple: the same lemma serves ETuple and EList on either side *)
  Lemma stands_tuple l l' : Forall2 stands l l' -> stands (ETuple l) (ETuple l').
  Proof.
    intro F. split; [|exact (stands_guards _ _ F)].
    intros rho J. cbn [M_A2A.eval]. now rewrite (stands_args _ _ _ F J).
  Qed.

  Lemma stands_call f l l' :
    existsb (String.eqb f) special_calls = false -> Forall2 stands l l' -> stands (ECall f l) (ECall f l').
  Proof.
    intros Sf F. split.
    - intros rho J. cbn [M_A2A.eval]. now rewrite (stands_args _ _ _ F J).
    - cbn [gexp]. now rewrite Sf, (stands_guards _ _ F).
  Qed.

  Lemma stands_binop op a a' b b' :
    negb (binop_eqb op Pow) = true -> stands a a' -> stands b b' -> stands (EBinOp op a b) (EBinOp op a' b').
  Proof.
    intros Po [Ea Ga] [Eb Gb]. split.
    - intros rho J. cbn [M_A2A.eval]. now rewrite (Ea _ J), (Eb _ J).
    - cbn [gexp]. now rewrite Po, Ga, Gb.
  Qed.

  Lemma stands_unop op a a' : stands a a' -> stands (EUnOp op a) (EUnOp op a').
  Proof. intros [Ea Ga]. split; auto. intros rho J. cbn [M_A2A.eval]. now rewrite (Ea _ J). Qed.

  Lemma stands_cmp op a a' b b' : stands a a' -> stands b b' -> stands (ECompare op a b) (ECompare op a' b').
  Proof.
    intros [Ea Ga] [Eb Gb]. split.
    - intros rho J. cbn [M_A2A.eval]. now rewrite (Ea _ J), (Eb _ J).
    - cbn [gexp]. now rewrite Ga, Gb.
  Qed.

  Lemma stands_ifexp c c' t t' f f' :
    stands c c' -> stands t t' -> stands f f' -> stands (EIfExp c t f) (EIfExp c' t' f').
  Proof.
    intros [Ec Gc] [Et Gt] [Ef Gf]. split.
    - intros rho J. cbn [M_A2A.eval]. now rewrite (Ec _ J), (Et _ J), (Ef _ J).
    - cbn [gexp]. now rewrite Gc, Gt, Gf.
  Qed.

  Lemma stands_subscript v v' s s' :
    stands v v' -> (forall rho, Iv rho -> eval rho s' = eval rho s) -> gidx okn lv s' = true ->
    stands (ESubscript v s) (ESubscript v' s').
  Proof.
    intros [Ev Gv] Es Gs. split.
    - intros rho J. cbn [M_A2A.eval]. now rewrite (Ev _ J), (Es _ J).
    - cbn [gexp]. rewrite Gv. exact Gs.
  Qed.

  Lemma guarded_constant e : guard e = true -> is_constant e = true -> exists k, e = EConst k.
  Proof. destruct e; simpl; intros G C; try discriminate; eauto. Qed.

  Lemma cst_truthy_val k b : cst_truthy (EConst k) = Ok b -> exists v, val_of_cst k = Some v /\ truthy v = b.
  Proof. destruct k; simpl; intro H; inversion H; eauto. Qed.

  (* what the folder builds from the value of an operation: its constant *)
  Lemma scal_ok r e' :
    (k <- cst_of_val r ;; Ok (EConst k)) = Ok e' -> exists k, e' = EConst k /\ val_of_cst k = Some r /\ valued k = true.
  Proof. intro H. inv_bind H. inversion H; subst. destruct (cst_of_val_ok _ _ Ha). eauto. Qed.

  Lemma fold_unop_sound op c e' : fold_unop op c = Ok e' -> stands (EUnOp op (EConst c)) e'.
  Proof.
    unfold fold_unop. destruct (val_of_cst c) as [v|] eqn:Ev; try discriminate.
    destruct (unop_val op v) as [r|] eqn:Er; try discriminate.
    intro H. destruct (scal_ok _ _ H) as (k & -> & Hk & Vk). split; [|exact Vk].
    intros rho _. cbn [M_A2A.eval]. now rewrite Ev, Er, Hk.
  Qed.

  Lemma fold_binop_sound op c d e' : fold_binop op c d = Ok e' -> stands (EBinOp op (EConst c) (EConst d)) e'.
  Proof.
    unfold fold_binop. destruct (val_of_cst c) as [x|] eqn:Ex; try discriminate.
    destruct (val_of_cst d) as [y|] eqn:Ey; try discriminate.
    destruct (binop_val op x y) as [r|] eqn:Er.
    - intro H. destruct (scal_ok _ _ H) as (k & -> & Hk & Vk). split; [|exact Vk].
      intros rho _. cbn [M_A2A.eval]. now rewrite Ex, Ey, Er, Hk.
    - destruct op; try discriminate. destruct (as_int y) as [[| |]|]; discriminate.
  Qed.

  Lemma fold_cmp_sound op c d e' : fold_cmp op c d = Ok e' -> stands (ECompare op (EConst c) (EConst d)) e'.
  Proof.
    unfold fold_cmp. destruct (val_of_cst c) as [x|] eqn:Ex; try discriminate.
    destruct (val_of_cst d) as [y|] eqn:Ey; try discriminate.
    destruct (cmp_val op x y) as [r|] eqn:Er; try discriminate.
    intro H. destruct (scal_ok _ _ H) as (k & -> & Hk & Vk). split; [|exact Vk].
    intros rho _. cbn [M_A2A.eval]. now rewrite Ex, Ey, Er, Hk.
  Qed.

  Lemma const_list_vals l :
    forallb is_constant l = true -> forallb guard l = true -> exists vs, forall rho, map (eval rho) l = map Some vs.
  Proof.
    induction l as [|a r IH]; simpl; intros Hc Hg. { now exists []. }
    apply andb_true_iff in Hc as [Ha Hr]. apply andb_true_iff in Hg as [Ga Gr].
    destruct (IH Hr Gr) as (vs & E). destruct (guarded_constant _ Ga Ha) as (k & ->).
    destruct (valued_val _ Ga) as (v & Hv). exists (v :: vs). intro rho. simpl. now rewrite Hv, E.
  Qed.

  Lemma fold_index_sound elts s dflt e' :
    forallb is_constant elts = true -> forallb guard elts = true -> fold_index elts s dflt = Ok e' ->
    e' = dflt \/ stands (ESubscript (EList elts) s) e'.
  Proof.
    unfold fold_index. intros Ce Ge.
    destruct (cst_of_exp s) as [c|] eqn:Cc; try discriminate. apply cst_of_exp_some in Cc. subst s.
    destruct (val_of_cst c) as [i|] eqn:Vi; try discriminate.
    destruct (as_int i) as [z|] eqn:Zi; try discriminate.
    destruct (index_list elts z) as [x|] eqn:Ix; intro H; inversion H; subst; [right|now left].
    split; [|apply index_list_in in Ix; rewrite forallb_forall in Ge; auto].
    intros rho _. destruct (const_list_vals _ Ce Ge) as (vs & Evs).
    cbn [M_A2A.eval]. rewrite Evs, all_some_Some, Vi. unfold option_map, subscript_val. rewrite Zi.
    pose proof (index_list_map (eval rho) elts z) as M. rewrite Ix, Evs, index_list_map in M.
    destruct (index_list vs z); inversion M. reflexivity.
  Qed.

  (* a binary node over folded operands: folded when both are constants, else rebuilt *)
  Lemma fold2_sound (mk : exp -> exp -> exp) (fo : cst -> cst -> res exp) e a b e' :
    stands e (mk a b) -> (forall c d r, fo c d = Ok r -> stands (mk (EConst c) (EConst d)) r) ->
    match cst_of_exp a, cst_of_exp b with
    | Some c, Some d => fo c d
    | _, _ => if is_constant a && is_constant b then Unmod else Ok (mk a b)
    end = Ok e' -> stands e e'.
  Proof.
    intros S F H. destruct (cst_of_exp a) as [c|] eqn:Ca; [destruct (cst_of_exp b) as [d|] eqn:Cd|].
    - apply cst_of_exp_some in Ca, Cd. subst. exact (stands_trans _ _ _ S (F _ _ _ H)).
    - destruct (_ && _); inversion H; subst; exact S.
    - destruct (_ && _); inversion H; subst; exact S.
  Qed.

  (* a subscript over folded operands: indexed when the list and the index are constants, else rebuilt *)
  Lemma fold_subscript_sound e v s e' :
    stands e (ESubscript v s) ->
    match as_list v with
    | Some elts => if is_constant s && forallb is_constant elts then fold_index elts s (ESubscript v s)
                   else Ok (ESubscript v s)
    | None => Ok (ESubscript v s)
    end = Ok e' -> stands e e'.
  Proof.
    intros S H. destruct (as_list v) as [elts|] eqn:La; [|inversion H; subst; exact S].
    destruct (is_constant s && forallb is_constant elts) eqn:C; [|inversion H; subst; exact S].
    apply andb_true_iff in C as [_ Ce]. destruct v; try discriminate La. inversion La; subst.
    pose proof (proj2 S) as G. cbn [gexp] in G. apply andb_true_iff in G as [Gv _].
    destruct (fold_index_sound _ _ _ _ Ce Gv H) as [->|S']; [exact S|exact (stands_trans _ _ _ S S')].
  Qed.

  (* a conditional over folded operands: the branch a constant test selects, else rebuilt *)
  Lemma fold_ifexp_sound e c t f e' :
    stands e (EIfExp c t f) ->
    (if is_constant c then (b <- ifexp_truthy c ;; Ok (if b then t else f)) else Ok (EIfExp c t f)) = Ok e' ->
    stands e e'.
  Proof.
    intros S H. destruct (is_constant c) eqn:Cc; [|inversion H; subst; exact S].
    inv_bind H. inversion H; subst. destruct S as [E G]. cbn [gexp] in G.
    apply andb3_true in G as (Gc & Gt & Gf).
    destruct (guarded_constant _ Gc Cc) as (k & ->). destruct (cst_truthy_val _ _ Ha) as (v & Ev & <-).
    split; [|destruct (truthy v); assumption].
    intros rho J. rewrite <- (E _ J). cbn [M_A2A.eval]. rewrite Ev. now destruct (truthy v).
  Qed.

  Lemma fold_exp_sound e : forall e', guard e = true -> fold_exp e = Ok e' -> stands e e'.
  Proof.
    induction e as [x|c|e IHe|op l IHl|op e1 e2 IHe1 IHe2|op e IHe|op e1 e2 IHe1 IHe2|e1 e2 e3 IHe1 IHe2 IHe3|l IHl|l IHl|e1 e2 IHe1 IHe2|f args IHl]
      using exp_ind2; intro e'; cbn [gexp fold_exp]; intros G H.
    - inversion H; subst. now apply stands_refl.
    - inversion H; subst. now apply stands_refl.
    - discriminate.
    - inv_bind H. inversion H; subst. apply stands_boolop, (mapM_Forall2 _ _ _ _ IHl _ G Ha).
    - apply andb3_true in G as (Gop & Ga & Gb).
      inv_bind H. inv_bind H.
      apply (fold2_sound (EBinOp op) (fold_binop op) _ a a0 _ (stands_binop _ _ _ _ _ Gop (IHe1 _ Ga Ha) (IHe2 _ Gb Ha0))
                         (fold_binop_sound op) H).
    - inv_bind H.
      assert (S : stands (EUnOp op e) (EUnOp op a)) by (apply stands_unop; auto).
      destruct (cst_of_exp a) as [c|] eqn:Ca.
      + apply cst_of_exp_some in Ca. subst. exact (stands_trans _ _ _ S (fold_unop_sound _ _ _ H)).
      + destruct (is_constant a); inversion H; subst; exact S.
    - apply andb_true_iff in G as [Ga Gb].
      inv_bind H. inv_bind H.
      apply (fold2_sound (ECompare op) (fold_cmp op) _ a a0 _ (stands_cmp _ _ _ _ _ (IHe1 _ Ga Ha) (IHe2 _ Gb Ha0))
                         (fold_cmp_sound op) H).
    - apply andb3_true in G as (Gc & Gt & Gf).
      inv_bind H. inv_bind H. inv_bind H.
      exact (fold_ifexp_sound _ _ _ _ _ (stands_ifexp _ _ _ _ _ _ (IHe1 _ Gc Ha) (IHe2 _ Gt Ha0) (IHe3 _ Gf Ha1)) H).
    - inv_bind H. inversion H; subst. apply stands_tuple, (mapM_Forall2 _ _ _ _ IHl _ G Ha).
    - inv_bind H. inversion H; subst. exact (stands_tuple _ _ (mapM_Forall2 _ _ _ _ IHl _ G Ha)).
    - apply andb_true_iff in G as [Gv Gs]. inv_bind H. inv_bind H.
      rewrite (gidx_fold _ _ _ Gs) in Ha0. inversion Ha0; subst a0.
      exact (fold_subscript_sound _ _ _ _ (stands_subscript _ _ _ _ (IHe1 _ Gv Ha) (fun _ _ => eq_refl) Gs) H).
    - apply orb_true_iff in G as [G|Gt].
      2:{ (* a builtin of a typed argument: nothing is folded *)
          destruct (typed_call_inv _ _ _ Gt) as (y & n & -> & _).
          change (fold_exp (ECall f [EName y]) = Ok e') in H. rewrite fold_typed_call in H. inversion H; subst.
          apply stands_refl. cbn [gexp]. rewrite Gt. apply orb_true_r. }
      apply andb_true_iff in G as [Gf Ga]. apply negb_true_iff in Gf.
      inv_bind H. rewrite (special_not_builtin _ Gf) in H. inversion H; subst.
      apply stands_call, (mapM_Forall2 _ _ _ _ IHl _ Ga Ha). exact Gf.
  Qed.

End Stands.

Definition seq (f g : env -> outcome) : env -> outcome :=
  fun rho => match f rho with Some (r, None) => g r | o => o end.

Lemma is_call_some f e args : is_call f e = Some args -> e = ECall f args.
Proof.
  destruct e; simpl; try discriminate. destruct (String.eqb f0 f) eqn:E; try discriminate.
  apply String.eqb_eq in E. intro H; inversion H; subst; auto.
Qed.

Section Sem.
  Variable ext : string -> list val -> option val.
  Notation eval := (eval ext).
  Notation exec := (exec ext).
  Notation exec_list := (exec_list ext).
  Notation iter_vals := (iter_vals ext).

  Lemma exec_list_nil rho : exec_list [] rho = Some (rho, None).
  Proof. reflexivity. Qed.

  Lemma exec_list_cons s r rho :
    exec_list (s :: r) rho = match exec s rho with Some (rho', None) => exec_list r rho' | o => o end.
  Proof. reflexivity. Qed.

  Lemma exec_list_single s rho : exec_list [s] rho = exec s rho.
  Proof. rewrite exec_list_cons. destruct (exec s rho) as [[r [v|]]|]; auto. Qed.

  Lemma exec_single_eq s s' : (forall rho, exec s' rho = exec s rho) -> forall rho, exec_list [s'] rho = exec s rho.
  Proof. intros E rho. now rewrite exec_list_single. Qed.

  Lemma exec_list_app l1 l2 rho :
    exec_list (l1 ++ l2) rho =
    match exec_list l1 rho with Some (rho', None) => exec_list l2 rho' | o => o end.
  Proof.
    revert rho; induction l1 as [|s r IH]; intro rho; simpl app.
    - reflexivity.
    - rewrite !exec_list_cons. destruct (exec s rho) as [[r1 [v|]]|]; auto.
  Qed.

  Lemma eval_ifexp t b e rho :
    eval rho (EIfExp t b e) =
    match eval rho t with Some v => if truthy v then eval rho b else eval rho e | None => None end.
  Proof. reflexivity. Qed.

  Lemma exec_if c b o rho :
    exec (SIf c b o) rho =
    match eval rho c with
    | Some v => if truthy v then exec_list b rho else exec_list o rho
    | None => None
    end.
  Proof. reflexivity. Qed.

  Lemma exec_for x it b o rho :
    exec (SFor x it b o) rho =
    match iter_vals rho it with
    | Some vs => seq (loop_with (exec_list b) x vs) (exec_list o) rho
    | None => None
    end.
  Proof. reflexivity. Qed.

  Lemma loop_with_ext (f g : env -> outcome) x vs rho :
    (forall r, f r = g r) -> loop_with f x vs rho = loop_with g x vs rho.
  Proof.
    intro E. revert rho; induction vs as [|v r IH]; intro rho; simpl; auto.
    rewrite E. destruct (g (upd rho x v)) as [[r1 [w|]]|]; auto.
  Qed.

  (* [g] does what [f] does from the environments [Iv] selects, which [f] does not leave *)
  Definition same_on (Iv : env -> Prop) (f g : env -> outcome) : Prop :=
    forall rho, Iv rho -> g rho = f rho /\ (forall rho1 r, f rho = Some (rho1, r) -> Iv rho1).

  Lemma same_on_nil (Iv : env -> Prop) : same_on Iv (exec_list []) (exec_list []).
  Proof. intros rho X. split; auto. intros rho1 r E. now inversion E; subst. Qed.

  Lemma same_on_seq (Iv : env -> Prop) f1 f2 g1 g2 : same_on Iv f1 g1 -> same_on Iv f2 g2 -> same_on Iv (seq f1 f2) (seq g1 g2).
  Proof.
    intros S1 S2 rho X. unfold seq. destruct (S1 rho X) as (E1 & P1). rewrite E1.
    destruct (f1 rho) as [[r1 [v|]]|].
    - split; auto.
    - apply S2. eauto.
    - split; [auto|discriminate].
  Qed.

  Lemma same_on_loop (Iv : env -> Prop) f g y vs :
    (forall rho v, Iv rho -> Iv (upd rho y v)) -> same_on Iv f g -> same_on Iv (loop_with f y vs) (loop_with g y vs).
  Proof.
    intros U S. induction vs as [|v vs IH]; intros rho X.
    - split; auto. intros rho1 r E. now inversion E; subst.
    - exact (same_on_seq Iv (fun e => f (upd e y v)) _ (fun e => g (upd e y v)) _ (fun e Xe => S _ (U e v Xe)) IH rho X).
  Qed.

  (* statement by statement: [exec] reads an expression through its value alone *)
  Lemma same_on_assign (Iv : env -> Prop) x e e' :
    (forall rho, Iv rho -> eval rho e' = eval rho e) -> (forall rho v, Iv rho -> Iv (upd rho x v)) ->
    same_on Iv (exec (SAssign (TName x) e)) (exec (SAssign (TName x) e')).
  Proof.
    intros E U rho X. cbn [M_A2A.exec]. rewrite (E _ X). split; auto.
    intros rho1 r H. destruct (eval rho e); inversion H; subst. auto.
  Qed.

  Lemma same_on_aug (Iv : env -> Prop) x op e e' :
    (forall rho, Iv rho -> eval rho e' = eval rho e) -> (forall rho v, Iv rho -> Iv (upd rho x v)) ->
    same_on Iv (exec (SAugAssign x op e)) (exec (SAugAssign x op e')).
  Proof.
    intros E U rho X. cbn [M_A2A.exec]. rewrite (E _ X). split; auto.
    intros rho1 r H. destruct (rho x) as [a|]; try discriminate. destruct (eval rho e) as [b|]; try discriminate.
    destruct (binop_val op a b); inversion H; subst. auto.
  Qed.

  Lemma same_on_return (Iv : env -> Prop) e e' :
    (forall rho, Iv rho -> eval rho e' = eval rho e) -> same_on Iv (exec (SReturn e)) (exec (SReturn e')).
  Proof.
    intros E rho X. cbn [M_A2A.exec]. rewrite (E _ X). split; auto.
    intros rho1 r H. destruct (eval rho e); inversion H; subst. auto.
  Qed.

  Lemma same_on_expr (Iv : env -> Prop) e e' :
    (forall rho, Iv rho -> eval rho e' = eval rho e) -> is_call "print" e = None -> is_call "print" e' = None ->
    same_on Iv (exec (SExpr (Some e))) (exec (SExpr (Some e'))).
  Proof.
    intros E C C' rho X. cbn [M_A2A.exec]. rewrite C, C', (E _ X). split; auto.
    intros rho1 r H. destruct (eval rho e); inversion H; subst. auto.
  Qed.

  Lemma same_on_if (Iv : env -> Prop) c c' b o b' o' :
    (forall rho, Iv rho -> eval rho c' = eval rho c) ->
    same_on Iv (exec_list b) (exec_list b') -> same_on Iv (exec_list o) (exec_list o') ->
    same_on Iv (exec (SIf c b o)) (exec (SIf c' b' o')).
  Proof.
    intros E Sb So rho X. rewrite !exec_if, (E _ X).
    destruct (eval rho c) as [v|]; [|split; [auto|discriminate]].
    destruct (truthy v); [exact (Sb rho X)|exact (So rho X)].
  Qed.

  Lemma same_on_for (Iv : env -> Prop) y it it' b o b' o' :
    (forall rho, Iv rho -> iter_vals rho it' = iter_vals rho it) -> (forall rho v, Iv rho -> Iv (upd rho y v)) ->
    same_on Iv (exec_list b) (exec_list b') -> same_on Iv (exec_list o) (exec_list o') ->
    same_on Iv (exec (SFor y it b o)) (exec (SFor y it' b' o')).
  Proof.
    intros E U Sb So rho X. rewrite !exec_for, (E _ X).
    destruct (iter_vals rho it) as [vs|]; [|split; [auto|discriminate]].
    exact (same_on_seq Iv _ _ _ _ (same_on_loop Iv _ _ y vs U Sb) So rho X).
  Qed.

  Lemma iter_vals_range rho args :
    iter_vals rho (ECall "range" args) =
    match all_some (map (eval rho) args) with
    | Some vs => match all_some (map as_int vs) with
                 | Some zs => option_map (map VInt) (range_of zs)
                 | None => None
                 end
    | None => None
    end.
  Proof. reflexivity. Qed.

  Lemma iter_vals_other rho it :
    is_call "range" it = None ->
    iter_vals rho it = match eval rho it with Some (VTup l) => Some l | _ => None end.
  Proof. unfold M_A2A.iter_vals. intros ->. reflexivity. Qed.

  Lemma flat_mapM_sound (T : stmt -> res (list stmt)) (g g' : stmt -> bool)
        (R : (env -> outcome) -> (env -> outcome) -> Prop) :
    R (exec_list []) (exec_list []) ->
    (forall s r l1 l2, R (exec s) (exec_list l1) -> R (exec_list r) (exec_list l2) ->
                       R (exec_list (s :: r)) (exec_list (l1 ++ l2))) ->
    forall b, Forall (fun s => forall l, g s = true -> T s = Ok l -> forallb g' l = true /\ R (exec s) (exec_list l)) b ->
    forall b', forallb g b = true -> flat_mapM T b = Ok b' -> forallb g' b' = true /\ R (exec_list b) (exec_list b').
  Proof.
    intros Rnil Rcons. induction 1 as [|s r Hs _ IH]; intros b' G H; simpl in H.
    - inversion H; subst. auto.
    - simpl in G. apply andb_true_iff in G as [Gs Gr]. inv_bind H. inv_bind H. inversion H; subst.
      destruct (Hs _ Gs Ha) as (G1 & R1). destruct (IH _ Gr Ha0) as (G2 & R2).
      split; [now rewrite forallb_app, G1, G2|auto].
  Qed.
End Sem.

(* print is a special name: a guarded expression is no call of it *)
Lemma gexp_not_print okn lv e : gexp okn plen pbool pint lv e = true -> is_call "print" e = None.
Proof.
  destruct e; cbn [is_call gexp]; auto. intro G.
  destruct (String.eqb f "print") eqn:E; auto. apply String.eqb_eq in E. subst.
  apply orb_true_iff in G as [G|G]; [apply andb_true_iff in G as [G _]; discriminate G|].
  destruct (typed_call_inv _ _ _ G) as (a & n & _ & _ & _ & [K|[[K _]|[[[K|K] _]|[[K|K] _]]]]); discriminate K.
Qed.

Lemma const_iter_gexp okn lv it : const_iter it = true -> gexp okn plen pbool pint lv it = true.
Proof.
  assert (K : forall l, forallb valued_const l = true -> forallb (gexp okn plen pbool pint lv) l = true).
  { induction l; simpl; auto. intro H. apply andb_true_iff in H as [H1 H2].
    rewrite IHl by auto. destruct a; simpl in *; try discriminate. now rewrite H1. }
  destruct it; simpl; try discriminate; auto.
Qed.

Lemma const_iter_not_range it : const_iter it = true -> is_call "range" it = None.
Proof. destruct it; simpl; try discriminate; auto. Qed.

(* the three transformers leave a valued constant alone, hence a list of them *)
Lemma mapM_const_list (T : exp -> res exp) l :
  (forall c, T (EConst c) = Ok (EConst c)) -> forallb valued_const l = true -> mapM T l = Ok l.
Proof.
  intro K. induction l; simpl; auto. intro H. apply andb_true_iff in H as [H1 H2].
  rewrite (IHl H2). destruct a; try discriminate H1. now rewrite K.
Qed.

Lemma fold_names okn l : forallb (gname okn plen) l = true -> mapM fold_exp l = Ok l.
Proof.
  induction l; simpl; auto. intro H. apply andb_true_iff in H as [H1 H2].
  rewrite (IHl H2). destruct a; simpl in *; try discriminate. reflexivity.
Qed.

(* the iterator of a guarded loop under an expression pass [T] *)
Section IterPass.
  Variable ext : string -> list val -> option val.
  Variable Iv : env -> Prop.
  Variable okn : string -> bool.
  Variables lv lv' : list string.
  Variable T : exp -> res exp.
  Hypothesis T_sound : forall e e', gexp okn plen pbool pint lv e = true -> T e = Ok e' -> stands ext Iv okn lv' e e'.
  Hypothesis T_range : forall args e', T (ECall "range" args) = Ok e' ->
                                       exists args', mapM T args = Ok args' /\ e' = ECall "range" args'.
  Hypothesis T_keeps : forall it it', const_iter it = true \/ (exists a, name_iter plen it = Some a) ->
                                      T it = Ok it' -> it' = it.

  Lemma iter_pass it it' :
    giter okn plen pbool pint lv it = true -> T it = Ok it' ->
    (forall rho, Iv rho -> iter_vals ext rho it' = iter_vals ext rho it) /\
    giter okn plen pbool pint lv' it' = true /\ name_iter plen it' = name_iter plen it.
  Proof.
    unfold giter. intros G H. destruct (is_call "range" it) as [args|] eqn:Ci.
    - apply is_call_some in Ci. subst it. destruct (T_range _ _ H) as (args' & Ha & ->).
      pose proof (mapM_all _ _ _ T_sound _ _ G Ha) as F.
      split; [|split; [exact (stands_guards _ _ _ _ _ _ F)|reflexivity]].
      intros rho J. rewrite !iter_vals_range. now rewrite (stands_args _ _ _ _ _ _ _ F J).
    - assert (it' = it) as ->; [|rewrite Ci; auto].
      apply T_keeps; auto. apply orb_true_iff in G as [G|G]; [now left|right].
      destruct (name_iter plen it); [eauto|discriminate].
  Qed.
End IterPass.

Lemma fold_range args e' :
  fold_exp (ECall "range" args) = Ok e' -> exists args', mapM fold_exp args = Ok args' /\ e' = ECall "range" args'.
Proof.
  cbn [fold_exp]. intro H. inv_bind H.
  change (existsb (String.eqb "range") builtin_funcs) with false in H. inversion H; eauto.
Qed.

Lemma fold_iter_keeps it it' :
  const_iter it = true \/ (exists a, name_iter plen it = Some a) -> fold_exp it = Ok it' -> it' = it.
Proof.
  intros [C|[a N]] H.
  - destruct it; try discriminate C; cbn [fold_exp] in H; rewrite (mapM_const_list fold_exp _ (fun _ => eq_refl) C) in H; now inversion H.
  - destruct it; try discriminate N. now inversion H.
Qed.

Section FoldStmt.
  Variable ext : string -> list val -> option val.
  Variable okn : string -> bool.
  Notation eval := (eval ext).
  Notation exec := (exec ext).
  Notation exec_list := (exec_list ext).
  Notation iter_vals := (iter_vals ext).

  Lemma fold_exp_eval lv e e' :
    gexp okn plen pbool pint lv e = true -> fold_exp e = Ok e' ->
    (forall rho, eval rho e' = eval rho e) /\ gexp okn plen pbool pint lv e' = true.
  Proof. intros G H. destruct (fold_exp_sound ext (fun _ => True) okn lv _ _ G H) as [E G']. auto. Qed.

  Lemma fold_iter_sound lv it it' :
    giter okn plen pbool pint lv it = true -> fold_exp it = Ok it' ->
    (forall rho, iter_vals rho it' = iter_vals rho it) /\
    giter okn plen pbool pint lv it' = true /\ name_iter plen it' = name_iter plen it.
  Proof.
    intros G H.
    destruct (iter_pass ext (fun _ => True) okn lv lv fold_exp (fold_exp_sound ext _ okn lv) fold_range
                        fold_iter_keeps _ _ G H) as (E & K).
    auto.
  Qed.

  Definition fold_stmt_spec (s : stmt) : Prop :=
    forall lv l, gstmt okn plen pbool pint lv s = true -> fold_stmt s = Ok l ->
                 forallb (gstmt okn plen pbool pint lv) l = true /\ (forall rho, exec_list l rho = exec s rho).

  Lemma fold_flat_sound lv b : Forall fold_stmt_spec b ->
    forall b', forallb (gstmt okn plen pbool pint lv) b = true -> flat_mapM fold_stmt b = Ok b' ->
    forallb (gstmt okn plen pbool pint lv) b' = true /\ (forall rho, exec_list b' rho = exec_list b rho).
  Proof.
    intro F. apply (flat_mapM_sound ext fold_stmt _ _ (fun f g => forall rho, g rho = f rho)).
    - reflexivity.
    - intros s r l1 l2 E1 E2 rho. rewrite exec_list_app, exec_list_cons, E1.
      destruct (exec s rho) as [[r1 [v|]]|]; auto.
    - exact (Forall_inst _ _ lv F).
  Qed.

  Lemma fold_stmt_sound s : fold_stmt_spec s.
  Proof.
    induction s as [t e|x op e|c b o Hb Ho|x it b fo Hb Hfo|e|e] using stmt_ind2; intros lv l;
      cbn [gstmt fold_stmt]; intros G H.
    - inv_bind H. inv_bind H. inversion H; subst.
      destruct t as [x|tl].
      + apply andb_true_iff in G as [Gx Ge].
        destruct (fold_exp_eval lv _ _ Ge Ha0) as (E & G').
        simpl in Ha. inversion Ha; subst. split.
        * simpl. now rewrite Gx, G'.
        * apply exec_single_eq. intro rho. simpl. now rewrite E.
      + apply andb3_true in G as (Gn & Ge & Gl).
        destruct (fold_exp_eval lv _ _ Ge Ha0) as (E & G').
        simpl in Ha. rewrite (fold_names _ _ Gn) in Ha. simpl in Ha. inversion Ha; subst. split.
        * simpl. rewrite Gn, G'. simpl.
          (* the right-hand side keeps its length: a name, or a literal folded element-wise *)
          destruct e; simpl in Gl; try discriminate; simpl in Ha0.
          { inversion Ha0; subst. simpl. rewrite Gl. reflexivity. }
          all: inv_bind Ha0; inversion Ha0; subst; simpl.
          all: apply mapM_ok, Forall2_length in Ha1; rewrite <- Ha1, Gl; reflexivity.
        * apply exec_single_eq. intro rho. simpl. now rewrite E.
    - apply andb3_true in G as (Gx & Gop & Ge).
      inv_bind H. inversion H; subst.
      destruct (fold_exp_eval lv _ _ Ge Ha) as (E & G'). split.
      + simpl. now rewrite Gx, Gop, G'.
      + apply exec_single_eq. intro rho. simpl. now rewrite E.
    - apply andb3_true in G as (Gc & Gb & Go).
      inv_bind H. inv_bind H. inv_bind H.
      destruct (fold_exp_eval lv _ _ Gc Ha) as (Ec & Gc').
      destruct (fold_flat_sound lv _ Hb _ Gb Ha0) as (Gb' & Eb).
      destruct (fold_flat_sound lv _ Ho _ Go Ha1) as (Go' & Eo).
      destruct (is_constant a) eqn:Ca.
      + (* a constant test: the branch its value selects *)
        inv_bind H. inversion H; subst.
        destruct (guarded_constant _ _ _ Gc' Ca) as (k & ->). destruct (cst_truthy_val _ _ Ha2) as (v & Ev & <-).
        split; [destruct (truthy v); assumption|].
        intro rho. rewrite exec_if, <- Ec. cbn [M_A2A.eval]. rewrite Ev. destruct (truthy v); auto.
      + inversion H; subst. split.
        * simpl. now rewrite Gc', Gb', Go'.
        * apply exec_single_eq. intro rho. rewrite !exec_if, Ec, Eb, Eo. reflexivity.
    - apply andb5_true in G as (Gx & Gi & Gn & Gb & Go).
      inv_bind H. inv_bind H. inv_bind H. inversion H; subst.
      destruct (fold_iter_sound lv _ _ Gi Ha) as (Ei & Gi' & En).
      destruct (fold_flat_sound _ _ Hb _ Gb Ha0) as (Gb' & Eb).
      destruct (fold_flat_sound lv _ Hfo _ Go Ha1) as (Go' & Eo).
      split.
      + cbn [forallb gstmt]. unfold body_lv in *. rewrite En. now rewrite Gx, Gi', Gn, Gb', Go'.
      + apply exec_single_eq. intro rho. rewrite !exec_for, Ei.
        destruct (iter_vals rho it) as [vs|]; auto. unfold seq. rewrite (loop_with_ext _ _ x vs rho Eb).
        destruct (loop_with (exec_list b) x vs rho) as [[r1 [v1|]]|]; auto.
    - inv_bind H. inversion H; subst.
      destruct (fold_exp_eval lv _ _ G Ha) as (E & G'). split.
      + simpl. now rewrite G'.
      + apply exec_single_eq. intro rho. simpl. now rewrite E.
    - destruct e as [e|]; [|inversion H; subst; split; auto].
      inv_bind H. inversion H; subst.
      destruct (fold_exp_eval lv _ _ G Ha) as (E & G'). split.
      + simpl. now rewrite G'.
      + apply exec_single_eq. intro rho. simpl.
        rewrite (gexp_not_print _ _ _ G), (gexp_not_print _ _ _ G').
        now rewrite E.
  Qed.

  Lemma fold_list_sound lv b b' :
    forallb (gstmt okn plen pbool pint lv) b = true -> fold_list b = Ok b' ->
    (forall rho, exec_list b' rho = exec_list b rho) /\ forallb (gstmt okn plen pbool pint lv) b' = true.
  Proof.
    intros G H. apply and_comm. revert b' G H.
    apply fold_flat_sound, Forall_forall. intros s _. apply fold_stmt_sound.
  Qed.
End FoldStmt.

(* the two environments agree on the names P selects (the rewritten program has
   more names: its temporaries) *)
Definition Ragree (P : string -> bool) (rho rho' : env) : Prop :=
  forall x, P x = true -> rho x = rho' x.
Definition Rout (P : string -> bool) (o o' : env * option val) : Prop :=
  Ragree P (fst o) (fst o') /\ snd o = snd o'.
(* whenever the rewritten code [g] has an outcome, the original [f] has a related one *)
Definition bsim (P : string -> bool) (f g : env -> outcome) : Prop :=
  forall rho rho' o', Inv rho' -> Ragree P rho rho' -> g rho' = Some o' ->
                      exists o, f rho = Some o /\ Rout P o o' /\ Inv (fst o').

Lemma Inv_upd rho x v : prot x = false -> Inv rho -> Inv (upd rho x v).
Proof.
  intros Px J a Pa. unfold upd. destruct (String.eqb x a) eqn:E; auto.
  apply String.eqb_eq in E. congruence.
Qed.

Lemma Ragree_upd P rho rho' x v : Ragree P rho rho' -> Ragree P (upd rho x v) (upd rho' x v).
Proof. intros H y Py. unfold upd. destruct (String.eqb x y); auto. Qed.

Lemma Ragree_upd_r P rho rho' x v : P x = false -> Ragree P rho rho' -> Ragree P rho (upd rho' x v).
Proof.
  intros Px H y Py. unfold upd. destruct (String.eqb x y) eqn:E; auto.
  apply String.eqb_eq in E. congruence.
Qed.

Lemma Ragree_mono (P Q : string -> bool) rho rho' :
  (forall x, Q x = true -> P x = true) -> Ragree P rho rho' -> Ragree Q rho rho'.
Proof. intros M H x Qx. auto. Qed.

Lemma bsim_seq P f1 f2 g1 g2 : bsim P f1 g1 -> bsim P f2 g2 -> bsim P (seq f1 f2) (seq g1 g2).
Proof.
  intros B1 B2 rho rho' o' J R H. unfold seq in *.
  destruct (g1 rho') as [[r1' w']|] eqn:E1; try discriminate.
  destruct (B1 _ _ _ J R E1) as ([r1 w] & F1 & (R1 & Ev) & J1). simpl in *. subst w. rewrite F1.
  destruct w' as [v|].
  - inversion H; subst. exists (r1, Some v). split; auto. split; auto. split; auto.
  - apply (B2 _ _ _ J1 R1 H).
Qed.

Lemma bsim_nil P : bsim P (fun rho => Some (rho, None)) (fun rho => Some (rho, None)).
Proof. intros rho rho' o' J R H. inversion H; subst. exists (rho, None). split; auto. split; auto. split; auto. Qed.

Lemma bsim_loop P body body' x vs :
  prot x = false -> bsim P body body' -> bsim P (loop_with body x vs) (loop_with body' x vs).
Proof.
  intros Px B. induction vs as [|v r IH]; intros rho rho' o' J R H; simpl in *.
  - exact (bsim_nil P rho rho' o' J R H).
  - assert (S : bsim P (seq (fun e => body (upd e x v)) (loop_with body x r))
                       (seq (fun e => body' (upd e x v)) (loop_with body' x r))).
    { apply bsim_seq; auto. intros e e' o2 Je Re He.
      apply (B _ _ _ (Inv_upd _ x v Px Je) (Ragree_upd _ _ _ x v Re) He). }
    apply (S _ _ _ J R H).
Qed.

Section Agree.
  Variable ext : string -> list val -> option val.
  Notation eval := (eval ext).
  Notation iter_vals := (iter_vals ext).

  Lemma eval_agree okn lv e rho rho' :
    gexp okn plen pbool pint lv e = true -> Ragree okn rho rho' -> eval rho e = eval rho' e.
  Proof.
    intros G R. revert G.
    induction e as [x|c|e IHe|op l IHl|op e1 e2 IHe1 IHe2|op e IHe|op e1 e2 IHe1 IHe2|e1 e2 e3 IHe1 IHe2 IHe3|l IHl|l IHl|e1 e2 IHe1 IHe2|f args IHl]
      using exp_ind2; cbn [gexp M_A2A.eval]; intro G.
    - auto.
    - auto.
    - discriminate.
    - apply boolop_with_ext, (Forall2_diag (fun a b => eval rho a = eval rho' b) _ _ IHl G).
    - apply andb3_true in G as (_ & Ga & Gb). now rewrite IHe1, IHe2.
    - now rewrite IHe.
    - apply andb_true_iff in G as [Ga Gb]. now rewrite IHe1, IHe2.
    - apply andb3_true in G as (Gc & Gt & Gf). now rewrite IHe1, IHe2, IHe3.
    - now rewrite (all_some_map_ext _ _ _ _ (Forall2_diag (fun a b => eval rho a = eval rho' b) _ _ IHl G)).
    - now rewrite (all_some_map_ext _ _ _ _ (Forall2_diag (fun a b => eval rho a = eval rho' b) _ _ IHl G)).
    - apply andb_true_iff in G as [Gv Gs]. now rewrite IHe1, (IHe2 (gidx_gexp _ _ _ Gs)).
    - apply orb_true_iff in G as [G|Gt].
      2:{ destruct (typed_call_inv _ _ _ Gt) as (y & n & -> & Oy & _ & _). simpl. now rewrite (R y Oy). }
      apply andb_true_iff in G as [_ Ga].
      now rewrite (all_some_map_ext _ _ _ _ (Forall2_diag (fun a b => eval rho a = eval rho' b) _ _ IHl Ga)).
  Qed.

  (* the value of the rewritten [e'] where the target program runs is the value of [e] where the source runs *)
  Lemma eval_back okn lv e e' rho rho' :
    gexp okn plen pbool pint lv e = true -> (forall r, Inv r -> eval r e' = eval r e) ->
    Inv rho' -> Ragree okn rho rho' -> eval rho' e' = eval rho e.
  Proof. intros G E J R. rewrite (E _ J). symmetry. exact (eval_agree okn lv e rho rho' G R). Qed.

  Lemma args_agree okn lv args rho rho' :
    forallb (gexp okn plen pbool pint lv) args = true -> Ragree okn rho rho' ->
    all_some (map (eval rho) args) = all_some (map (eval rho') args).
  Proof.
    intros G R. apply all_some_map_ext, (Forall2_diag _ (gexp okn plen pbool pint lv)); [|exact G].
    apply Forall_forall. intros e _ Ge. exact (eval_agree _ _ _ _ _ Ge R).
  Qed.

  Lemma iter_agree okn lv it rho rho' :
    giter okn plen pbool pint lv it = true ->
    Ragree okn rho rho' -> iter_vals rho it = iter_vals rho' it.
  Proof.
    unfold giter. intros G R. destruct (is_call "range" it) as [args|] eqn:Ci.
    - apply is_call_some in Ci. subst. rewrite !iter_vals_range. now rewrite (args_agree _ _ _ _ _ G R).
    - rewrite !iter_vals_other by auto. apply orb_true_iff in G as [G|G].
      + now rewrite (eval_agree okn lv _ _ _ (const_iter_gexp _ _ _ G) R).
      + destruct it; simpl in G; try discriminate. destruct (prot x); try discriminate.
        simpl. now rewrite (R x G).
  Qed.
End Agree.

Section Mono.
  Variables P Q : string -> bool.
  Hypothesis M : forall x, P x = true -> Q x = true.

  Lemma gexp_mono lv e : gexp P plen pbool pint lv e = true -> gexp Q plen pbool pint lv e = true.
  Proof.
    induction e as [x|c|e IHe|op l IHl|op e1 e2 IHe1 IHe2|op e IHe|op e1 e2 IHe1 IHe2|e1 e2 e3 IHe1 IHe2 IHe3|l IHl|l IHl|e1 e2 IHe1 IHe2|f args IHl]
      using exp_ind2; cbn [gexp]; intro G; auto.
    - apply (forallb_impl _ _ _ IHl G).
    - apply andb3_true in G as (Go & Ga & Gb). now rewrite Go, IHe1, IHe2.
    - apply andb_true_iff in G as [Ga Gb]. now rewrite IHe1, IHe2.
    - apply andb3_true in G as (Gc & Gt & Gf). now rewrite IHe1, IHe2, IHe3.
    - apply (forallb_impl _ _ _ IHl G).
    - apply (forallb_impl _ _ _ IHl G).
    - apply andb_true_iff in G as [Gv Gs]. rewrite IHe1 by auto. simpl.
      destruct e2; auto. apply andb_true_iff in Gs as [Gx Gl]. now rewrite (M _ Gx), Gl.
    - apply orb_true_iff in G. apply orb_true_iff. destruct G as [G|Gt].
      + left. apply andb_true_iff in G as [Gf Ga]. now rewrite Gf, (forallb_impl _ _ _ IHl Ga).
      + right. destruct (typed_call_inv _ _ _ Gt) as (y & n & -> & Oy & Py & _).
        unfold typed_call in *. rewrite Py in *. rewrite Oy in Gt. rewrite (M _ Oy). exact Gt.
  Qed.

  Lemma gargs_mono lv l :
    forallb (gexp P plen pbool pint lv) l = true -> forallb (gexp Q plen pbool pint lv) l = true.
  Proof. apply forallb_impl, Forall_forall. intros e _. apply gexp_mono. Qed.

  Lemma okt_mono x : okt P plen x = true -> okt Q plen x = true.
  Proof. unfold okt. intro H. apply andb_true_iff in H as [H1 H2]. now rewrite (M _ H1), H2. Qed.

  Lemma giter_mono lv it : giter P plen pbool pint lv it = true -> giter Q plen pbool pint lv it = true.
  Proof.
    unfold giter. intro H. destruct (is_call "range" it).
    - now apply gargs_mono.
    - apply orb_true_iff in H. apply orb_true_iff. destruct H as [H|H]; auto. right.
      destruct (name_iter plen it); auto.
  Qed.

  Lemma gstmt_mono s : forall lv, gstmt P plen pbool pint lv s = true -> gstmt Q plen pbool pint lv s = true.
  Proof.
    induction s as [t e|x op e|c b o Hb Ho|x it b fo Hb Hfo|e|e] using stmt_ind2; intro lv; cbn [gstmt]; intro G.
    - destruct t as [x|tl].
      + apply andb_true_iff in G as [Gx Ge]. now rewrite (okt_mono x Gx), (gexp_mono lv e Ge).
      + apply andb3_true in G as (Gn & Ge & Gl).
        rewrite (gexp_mono lv e Ge), Gl, andb_true_r, andb_true_r.
        revert Gn. apply forallb_impl, Forall_forall. intros [] _; try discriminate. apply okt_mono.
    - apply andb3_true in G as (Gx & Gop & Ge).
      now rewrite (okt_mono x Gx), Gop, (gexp_mono lv e Ge).
    - apply andb3_true in G as (Gc & Gb & Go).
      now rewrite (gexp_mono lv c Gc), (forallb_impl _ _ _ (Forall_inst _ _ lv Hb) Gb),
        (forallb_impl _ _ _ (Forall_inst _ _ lv Ho) Go).
    - apply andb5_true in G as (Gx & Gi & Gn & Gb & Go).
      now rewrite (okt_mono x Gx), (giter_mono lv it Gi), Gn, (forallb_impl _ _ _ (Forall_inst _ _ _ Hb) Gb),
        (forallb_impl _ _ _ (Forall_inst _ _ lv Hfo) Go).
    - now apply gexp_mono.
    - destruct e; auto. now apply gexp_mono.
  Qed.
End Mono.

Lemma glist_mono (P Q : string -> bool) lv l :
  (forall x, P x = true -> Q x = true) -> forallb (gstmt P plen pbool pint lv) l = true -> forallb (gstmt Q plen pbool pint lv) l = true.
Proof. intro M. apply forallb_impl, Forall_forall. intros s _. now apply gstmt_mono. Qed.

Lemma prefix_cons c p a s : prefix (String c p) (String a s) = if ascii_dec c a then prefix p s else false.
Proof. reflexivity. Qed.

Lemma user_visible x : user_name x = true -> visible x = true.
Proof.
  unfold user_name, visible, reserved, is_iftarg, iftarg_prefix, is_forit, forit_prefix.
  intro H. apply andb_true_iff in H as [D R]. rewrite D. simpl.
  apply negb_true_iff in R. apply orb_false_iff in R as [R F].
  apply orb_false_iff in R as [_ I]. now rewrite I, F.
Qed.

Section SimStmt.
  Variable ext : string -> list val -> option val.
  Notation eval := (eval ext).
  Notation exec := (exec ext).
  Notation exec_list := (exec_list ext).
  Notation iter_vals := (iter_vals ext).

  Lemma bsim_ext P f f' g g' :
    (forall rho, f rho = f' rho) -> (forall rho, g rho = g' rho) -> bsim P f g -> bsim P f' g'.
  Proof. intros Ef Eg B rho rho' o' J R H. rewrite <- Eg in H. rewrite <- Ef. eauto. Qed.

  Lemma okt_inv P x : okt P plen x = true -> P x = true /\ prot x = false.
  Proof. unfold okt. intro H. apply andb_true_iff in H as [A B]. apply negb_true_iff in B. auto. Qed.

  (* a name the program may bind is no typed tuple argument *)
  Lemma okt_not_prot P a y : prot a = true -> okt P plen y = true -> String.eqb y a = false.
  Proof.
    intros Pa Oy. destruct (okt_inv _ _ Oy) as (_ & Py).
    destruct (String.eqb y a) eqn:E; auto. apply String.eqb_eq in E. congruence.
  Qed.

  Lemma bsim_assign P lv x e e' :
    prot x = false -> gexp P plen pbool pint lv e = true -> (forall rho, Inv rho -> eval rho e' = eval rho e) ->
    bsim P (exec (SAssign (TName x) e)) (exec (SAssign (TName x) e')).
  Proof.
    intros Px G E rho rho' o' J R H. simpl in *. rewrite (eval_back ext P lv e e' rho rho' G E J R) in H.
    destruct (eval rho e) as [v|]; try discriminate. inversion H; subst.
    exists (upd rho x v, None). split; auto. split; [split|]; simpl; auto using Ragree_upd, Inv_upd.
  Qed.

  Lemma bsim_aug P lv x op e e' :
    P x = true -> prot x = false -> gexp P plen pbool pint lv e = true -> (forall rho, Inv rho -> eval rho e' = eval rho e) ->
    bsim P (exec (SAugAssign x op e)) (exec (SAugAssign x op e')).
  Proof.
    intros Px Qx G E rho rho' o' J R H. simpl in *. rewrite (eval_back ext P lv e e' rho rho' G E J R), <- (R x Px) in H.
    destruct (rho x) as [a|]; try discriminate. destruct (eval rho e) as [v|]; try discriminate.
    destruct (binop_val op a v) as [w|]; try discriminate. simpl in *. inversion H; subst.
    exists (upd rho x w, None). split; auto. split; [split|]; simpl; auto using Ragree_upd, Inv_upd.
  Qed.

  Lemma bsim_return P lv e e' :
    gexp P plen pbool pint lv e = true -> (forall rho, Inv rho -> eval rho e' = eval rho e) ->
    bsim P (exec (SReturn e)) (exec (SReturn e')).
  Proof.
    intros G E rho rho' o' J R H. simpl in *. rewrite (eval_back ext P lv e e' rho rho' G E J R) in H.
    destruct (eval rho e) as [v|]; try discriminate. inversion H; subst.
    exists (rho, Some v). split; auto. split; [split|]; simpl; auto.
  Qed.

  Lemma bsim_expr P lv e e' :
    gexp P plen pbool pint lv e = true -> gexp P plen pbool pint lv e' = true -> (forall rho, Inv rho -> eval rho e' = eval rho e) ->
    bsim P (exec (SExpr (Some e))) (exec (SExpr (Some e'))).
  Proof.
    intros G G' E rho rho' o' J R H. simpl in *.
    rewrite (gexp_not_print _ _ _ G'), (eval_back ext P lv e e' rho rho' G E J R) in H. rewrite (gexp_not_print _ _ _ G).
    destruct (eval rho e) as [v|]; try discriminate. inversion H; subst.
    exists (rho, None). split; auto. split; [split|]; simpl; auto.
  Qed.

  Lemma bsim_skip P : bsim P (exec (SExpr None)) (exec (SExpr None)).
  Proof. exact (bsim_nil P). Qed.

  Lemma bsim_if P lv c c' b o b' o' :
    gexp P plen pbool pint lv c = true -> (forall rho, Inv rho -> eval rho c' = eval rho c) ->
    bsim P (exec_list b) (exec_list b') -> bsim P (exec_list o) (exec_list o') ->
    bsim P (exec (SIf c b o)) (exec (SIf c' b' o')).
  Proof.
    intros G E Bb Bo rho rho' out J R H. rewrite exec_if in *. rewrite (eval_back ext P lv c c' rho rho' G E J R) in H.
    destruct (eval rho c) as [v|]; try discriminate. destruct (truthy v); eauto.
  Qed.

  Lemma bsim_for P lv x it b o b' o' :
    prot x = false -> giter P plen pbool pint lv it = true ->
    bsim P (exec_list b) (exec_list b') -> bsim P (exec_list o) (exec_list o') ->
    bsim P (exec (SFor x it b o)) (exec (SFor x it b' o')).
  Proof.
    intros Px G B Bo rho rho' out J R H. rewrite exec_for in *.
    rewrite (iter_agree ext P lv it rho rho' G R).
    destruct (iter_vals rho' it) as [vs|]; try discriminate.
    apply (bsim_seq P _ _ _ _ (bsim_loop P _ _ x vs Px B) Bo _ _ _ J R H).
  Qed.

  Lemma bsim_list_cons P s r l1 l2 :
    bsim P (exec s) (exec_list l1) -> bsim P (exec_list r) (exec_list l2) ->
    bsim P (exec_list (s :: r)) (exec_list (l1 ++ l2)).
  Proof.
    intros B1 B2. eapply bsim_ext; [| |apply (bsim_seq P _ _ _ _ B1 B2)].
    - intro rho. unfold seq. now rewrite exec_list_cons.
    - intro rho. unfold seq. now rewrite exec_list_app.
  Qed.
End SimStmt.

Section Multi.
  Variable ext : string -> list val -> option val.
  Notation eval := (eval ext).
  Notation exec := (exec ext).
  Notation exec_list := (exec_list ext).
  Notation iter_vals := (iter_vals ext).

  Lemma names_of_ok tl names : mapM name_of tl = Ok names -> tl = map EName names.
  Proof.
    revert names; induction tl as [|a r IH]; simpl; intros names H.
    - inversion H; auto.
    - inv_bind H. inv_bind H. inversion H; subst. destruct a; simpl in Ha; try discriminate.
      inversion Ha; subst. simpl. f_equal. auto.
  Qed.

  Lemma index_list_mid {A} (done rest : list A) v :
    index_list (done ++ v :: rest) (Z.of_nat (List.length done)) = Some v.
  Proof.
    unfold index_list. rewrite app_length. simpl.
    assert ((0 <=? Z.of_nat (List.length done))%Z = true) as -> by (apply Z.leb_le; lia).
    assert ((Z.of_nat (List.length done) <? Z.of_nat (List.length done + S (List.length rest)))%Z = true) as ->
      by (apply Z.ltb_lt; lia).
    simpl. rewrite Nat2Z.id. rewrite nth_error_app2 by lia. now rewrite Nat.sub_diag.
  Qed.

  Lemma temptup_not_user : user_name temptup = false.
  Proof. reflexivity. Qed.

  Lemma not_user_not_prot x : user_name x = false -> prot x = false.
  Proof. intro U. destruct (prot x) eqn:E; auto. apply prot_user in E. congruence. Qed.

  Lemma temptup_not_prot : prot temptup = false.
  Proof. apply not_user_not_prot. reflexivity. Qed.

  (* a name the tuple assignment may bind is not the name it unpacks *)
  Lemma okt_neq src x :
    (user_name src = false \/ prot src = true) -> okt user_name plen x = true -> String.eqb x src = false.
  Proof.
    intros S Ox. destruct (okt_inv _ _ Ox) as (U & Q).
    destruct (String.eqb x src) eqn:E; auto. apply String.eqb_eq in E. subst. destruct S; congruence.
  Qed.

  (* x0 = src[k]; x1 = src[k+1]; ... against the tuple assignment *)
  Lemma singles_sound src names : forall done rest rho rho' o',
    forallb (okt user_name plen) names = true -> (user_name src = false \/ prot src = true) ->
    List.length names = List.length rest ->
    rho' src = Some (VTup (done ++ rest)) -> Inv rho' -> Ragree user_name rho rho' ->
    exec_list (singles (EName src) names (Z.of_nat (List.length done))) rho' = Some o' ->
    exists r, assign_names (map EName names) rest rho = Some r /\ Rout user_name (r, None) o' /\ Inv (fst o').
  Proof.
    induction names as [|x names IH]; intros done rest rho rho' o' U S L T J R H.
    - destruct rest; try discriminate. simpl in *. inversion H; subst. exists rho. split; auto. split; auto. split; auto.
    - destruct rest as [|v rest]; try discriminate. simpl in U. apply andb_true_iff in U as [Ux Un].
      destruct (okt_inv _ _ Ux) as (Ux1 & Ux2).
      cbn [singles] in H. rewrite exec_list_cons in H. cbn [M_A2A.exec M_A2A.eval val_of_cst] in H.
      rewrite T in H. unfold subscript_val in H. cbn [as_int] in H. rewrite index_list_mid in H.
      simpl. apply (IH (done ++ [v]) rest (upd rho x v) (upd rho' x v) o'); auto.
      + unfold upd. rewrite (okt_neq _ _ S Ux). now rewrite <- app_assoc.
      + apply Inv_upd; auto.
      + apply Ragree_upd; auto.
      + rewrite app_length. simpl. replace (Z.of_nat (List.length done + 1)) with (Z.of_nat (List.length done) + 1)%Z by lia.
        exact H.
  Qed.

  Lemma unpack_sound names e src vals rho rho1 o' :
    forallb (okt user_name plen) names = true -> (user_name src = false \/ prot src = true) ->
    eval rho e = Some (VTup vals) -> List.length names = List.length vals ->
    rho1 src = Some (VTup vals) -> Inv rho1 -> Ragree user_name rho rho1 ->
    exec_list (singles (EName src) names 0) rho1 = Some o' ->
    exists o, exec (SAssign (TTuple (map EName names)) e) rho = Some o /\ Rout user_name o o' /\ Inv (fst o').
  Proof.
    intros Un S Ev L T J R H.
    destruct (singles_sound src names [] vals rho rho1 o' Un S L T J R H) as (r & Hr & Ro & Jo).
    cbn [M_A2A.exec]. rewrite Ev, Hr. cbn [option_map]. eauto.
  Qed.

  Lemma tuple_lit_eval e n rho v :
    tuple_lit_len e = Some n -> eval rho e = Some v -> exists vals, v = VTup vals /\ List.length vals = n.
  Proof.
    intros Tl Ev. destruct e; try discriminate Tl; inversion Tl; subst; cbn [M_A2A.eval] in Ev;
      destruct (all_some _) as [vals|] eqn:E; inversion Ev; subst; exists vals; split; auto;
      now rewrite (all_some_length _ _ E), map_length.
  Qed.

  Lemma okt_user_visible x : okt user_name plen x = true -> okt visible plen x = true.
  Proof. apply okt_mono, user_visible. Qed.

  Lemma singles_guard lv src names k :
    visible src = true ->
    forallb (okt user_name plen) names = true ->
    forallb (gstmt visible plen pbool pint lv) (singles (EName src) names k) = true.
  Proof.
    intro Vs. revert k; induction names as [|x r IH]; intros k U; simpl; auto.
    simpl in U. apply andb_true_iff in U as [Ux Ur].
    rewrite (okt_user_visible _ Ux), Vs, IH by auto. reflexivity.
  Qed.

  Lemma gnames_user names :
    forallb (gname user_name plen) (map EName names) = true -> forallb (okt user_name plen) names = true.
  Proof. induction names; simpl; auto. intro H. apply andb_true_iff in H; destruct H. rewrite H, IHnames; auto. Qed.

  (* x1, ..., xn = e for a literal [e] of n elements: through `_temptup` *)
  Lemma unpack_lit_sound lv names e n :
    forallb (okt user_name plen) names = true -> gexp user_name plen pbool pint lv e = true ->
    tuple_lit_len e = Some n -> n = List.length names ->
    bsim user_name (exec (SAssign (TTuple (map EName names)) e))
                   (exec_list (SAssign (TName temptup) e :: singles (EName temptup) names 0)).
  Proof.
    intros Un Ge Tl L rho rho' o' J R H. rewrite exec_list_cons in H. cbn [M_A2A.exec] in H.
    rewrite <- (eval_agree ext user_name lv e rho rho' Ge R) in H.
    destruct (eval rho e) as [v|] eqn:Ev; try discriminate.
    destruct (tuple_lit_eval _ _ _ _ Tl Ev) as (vals & -> & Lv).
    apply (unpack_sound names e temptup vals rho (upd rho' temptup (VTup vals)) o' Un (or_introl eq_refl) Ev).
    - congruence.
    - unfold upd. now rewrite String.eqb_refl.
    - apply Inv_upd; auto using temptup_not_prot.
    - apply Ragree_upd_r; auto.
    - exact H.
  Qed.

  (* ... for a typed tuple argument [x] of n elements, none of them [x]: read from [x] directly *)
  Lemma unpack_arg_sound names x n :
    forallb (okt user_name plen) names = true -> user_name x = true -> plen x = Some n -> n = List.length names ->
    bsim user_name (exec (SAssign (TTuple (map EName names)) (EName x))) (exec_list (singles (EName x) names 0)).
  Proof.
    intros Un Ux Px L rho rho' o' J R H. destruct (conf0 _ _ Px) as (vals & Hv & Lv).
    pose proof (plen_prot _ _ Px) as Pa.
    apply (unpack_sound names (EName x) x vals rho rho' o' Un (or_intror Pa)); auto.
    - cbn [M_A2A.eval]. now rewrite (R x Ux), (J x Pa).
    - congruence.
    - now rewrite (J x Pa).
  Qed.

  Definition multi_spec (s : stmt) : Prop :=
    forall lv l, gstmt user_name plen pbool pint lv s = true -> multi_stmt s = Ok l ->
                 forallb (gstmt visible plen pbool pint lv) l = true /\ bsim user_name (exec s) (exec_list l).

  Lemma multi_flat_sound lv b : Forall multi_spec b ->
    forall b', forallb (gstmt user_name plen pbool pint lv) b = true -> flat_mapM multi_stmt b = Ok b' ->
    forallb (gstmt visible plen pbool pint lv) b' = true /\ bsim user_name (exec_list b) (exec_list b').
  Proof.
    intro F. apply (flat_mapM_sound ext multi_stmt _ _ (bsim user_name)).
    - apply bsim_nil.
    - intros s r l1 l2. apply bsim_list_cons.
    - exact (Forall_inst _ _ lv F).
  Qed.

  Lemma bsim_single P f s : bsim P f (exec s) -> bsim P f (exec_list [s]).
  Proof. apply bsim_ext; auto. intro rho. now rewrite exec_list_single. Qed.

  Lemma exists_names_false a names :
    prot a = true -> forallb (okt user_name plen) names = true -> existsb (String.eqb a) names = false.
  Proof.
    intro Pa. apply existsb_false_impl, Forall_forall. intros y _ Oy.
    rewrite String.eqb_sym. exact (okt_not_prot _ a _ Pa Oy).
  Qed.

  Lemma multi_stmt_sound s : multi_spec s.
  Proof.
    (* [Gv]: a statement the pass leaves alone is guarded as it was, a user name being visible *)
    induction s as [t e|x op e|c b o Hb Ho|x it b fo Hb Hfo|e|e] using stmt_ind2; intros lv l G H;
      pose proof (gstmt_mono _ _ user_visible _ lv G) as Gv; cbn [gstmt multi_stmt] in G, H.
    - destruct t as [x|tl].
      + inversion H; subst. split; [cbn [forallb]; now rewrite Gv|].
        apply andb_true_iff in G as [Gx Ge]. destruct (okt_inv _ _ Gx) as (Gx1 & Gx2).
        apply bsim_single. apply (bsim_assign ext user_name lv); auto.
      + apply andb3_true in G as (Gn & Ge & Gl).
        inv_bind H. pose proof (names_of_ok _ _ Ha) as Etl. subst tl. rewrite map_length in Gl.
        pose proof (gnames_user _ Gn) as Un.
        destruct (tuple_lit_len e) as [nl|] eqn:Tl.
        * apply Nat.eqb_eq in Gl.
          assert (l = SAssign (TName temptup) e :: singles (EName temptup) a 0%Z) as ->
            by (destruct e; try discriminate Tl; now inversion H).
          split; [|exact (unpack_lit_sound lv a e nl Un Ge Tl Gl)].
          cbn [forallb gstmt]. unfold okt at 1. rewrite temptup_not_prot.
          rewrite (gexp_mono user_name visible user_visible lv e Ge), (singles_guard lv temptup a 0%Z eq_refl Un). reflexivity.
        * destruct e; try discriminate. destruct (plen x) as [n|] eqn:Px; try discriminate.
          apply Nat.eqb_eq in Gl. simpl in Ge.
          pose proof (plen_prot _ _ Px) as Pa.
          rewrite (exists_names_false _ _ Pa Un) in H. inversion H; subst l.
          split; [|exact (unpack_arg_sound a x n Un Ge Px Gl)].
          apply singles_guard; auto. apply user_visible, Ge.
    - inversion H; subst. split; [cbn [forallb]; now rewrite Gv|].
      apply andb3_true in G as (Gx & Gop & Ge).
      destruct (okt_inv _ _ Gx) as (Gx1 & Gx2).
      apply bsim_single. apply (bsim_aug ext user_name lv); auto.
    - apply andb3_true in G as (Gc & Gb & Go).
      inv_bind H. inv_bind H. inversion H; subst.
      destruct (multi_flat_sound _ _ Hb _ Gb Ha) as (Gb' & Bb).
      destruct (multi_flat_sound lv _ Ho _ Go Ha0) as (Go' & Bo).
      split.
      + simpl. now rewrite (gexp_mono user_name visible user_visible lv c Gc), Gb', Go'.
      + apply bsim_single, (bsim_if ext user_name lv); auto.
    - apply andb5_true in G as (Gx & Gi & Gn & Gb & Go).
      inv_bind H. inv_bind H. inversion H; subst.
      destruct (multi_flat_sound _ _ Hb _ Gb Ha) as (Gb' & Bb).
      destruct (multi_flat_sound lv _ Hfo _ Go Ha0) as (Go' & Bo).
      destruct (okt_inv _ _ Gx) as (Gx1 & Gx2).
      split.
      + cbn [forallb gstmt]. rewrite (okt_user_visible _ Gx), (giter_mono user_name visible user_visible lv it Gi), Gn, Gb', Go'.
        reflexivity.
      + apply bsim_single, (bsim_for ext user_name lv); auto.
    - inversion H; subst. split; [cbn [forallb]; now rewrite Gv|].
      apply bsim_single. apply (bsim_return ext user_name lv); auto.
    - inversion H; subst. split; [cbn [forallb]; now rewrite Gv|].
      apply bsim_single. destruct e as [e|].
      + apply (bsim_expr ext user_name lv); auto.
      + apply bsim_skip.
  Qed.

  Lemma multi_list_sound lv b b' :
    forallb (gstmt user_name plen pbool pint lv) b = true -> multi_list b = Ok b' ->
    forallb (gstmt visible plen pbool pint lv) b' = true /\ bsim user_name (exec_list b) (exec_list b').
  Proof.
    apply multi_flat_sound. apply Forall_forall. intros s _. apply multi_stmt_sound.
  Qed.
End Multi.

(* the name ASTRewriter gives the temporary of a self-referencing (or augmented) assignment to [x] *)
Definition tmp (x : string) : string := String.append "__" x.
(* The rewriter's output mentions `__x` and `_iftargN`, which no name predicate of the source admits;
   the second fold only needs the structural part of the guard, hence the trivial name predicate. *)
Definition anyn : string -> bool := fun _ => true.

Lemma gexp_anyn P lv e : gexp P plen pbool pint lv e = true -> gexp anyn plen pbool pint lv e = true.
Proof. apply gexp_mono. reflexivity. Qed.

Lemma prefix_append p s : prefix p (String.append p s) = true.
Proof.
  induction p as [|c p IH]; simpl.
  - destruct s; reflexivity.
  - destruct (ascii_dec c c); congruence.
Qed.

Lemma append_inj_l p s s' : String.append p s = String.append p s' -> s = s'.
Proof. induction p; simpl; intro H; auto. inversion H; auto. Qed.

Lemma tmp_dunder x : dunder (tmp x) = true.
Proof. apply prefix_append. Qed.

Lemma tmp_invisible x : visible (tmp x) = false.
Proof. unfold visible. now rewrite tmp_dunder. Qed.

Lemma iftarg_is u : is_iftarg (iftarg_name u) = true.
Proof. apply prefix_append. Qed.

Lemma iftarg_invisible u : visible (iftarg_name u) = false.
Proof. unfold visible. rewrite iftarg_is. destruct (dunder _); reflexivity. Qed.

Lemma forit_is u : is_forit (forit_name u) = true.
Proof. apply prefix_append. Qed.

Lemma forit_invisible u : visible (forit_name u) = false.
Proof. unfold visible. rewrite forit_is. destruct (dunder _); destruct (is_iftarg _); reflexivity. Qed.

Lemma hex_inj u u' : hex_of_N u = hex_of_N u' -> u = u'.
Proof.
  unfold hex_of_N. intro H.
  apply (f_equal NilEmpty.uint_of_string) in H. rewrite !NilEmpty.usu in H. inversion H as [H1].
  apply (f_equal N.of_hex_uint) in H1. now rewrite !Unsigned.of_to in H1.
Qed.

Lemma iftarg_inj u u' : iftarg_name u = iftarg_name u' -> u = u'.
Proof. unfold iftarg_name. intro H. apply append_inj_l in H. now apply hex_inj. Qed.

Lemma visible_inv x : visible x = true -> dunder x = false /\ is_iftarg x = false.
Proof.
  unfold visible. intro H. apply andb3_true in H as (A & B & _).
  apply negb_true_iff in A, B. auto.
Qed.

Lemma special_false f :
  existsb (String.eqb f) special_calls = false ->
  String.eqb f "len" = false /\ String.eqb f "sum" = false /\ String.eqb f "all" = false /\
  String.eqb f "any" = false /\ String.eqb f "min" = false /\ String.eqb f "max" = false /\
  String.eqb f "abs" = false /\ String.eqb f "print" = false /\ String.eqb f "range" = false /\
  String.eqb f "ord" = false /\ String.eqb f "chr" = false.
Proof.
  unfold special_calls. cbn [existsb]. intro H.
  repeat (apply orb_false_iff in H; destruct H as [? H]). repeat split; assumption.
Qed.

(* the types the rewriter's environment records for the typed tuple arguments are their
   annotations, whatever else has been bound since *)
Definition st_ok (st : rstate) : Prop :=
  forall a n, plen a = Some n ->
              exists l, assoc (tys st) a = Some (TyNode (ESubscript (EName "Tuple") (ETuple l))) /\
                        List.length l = n.

Lemma st_ok_tys st st' : tys st' = tys st -> st_ok st -> st_ok st'.
Proof. intros E S a n Pa. rewrite E. auto. Qed.

Lemma st_ok_cons st st' x t : prot x = false -> tys st' = (x, t) :: tys st -> st_ok st -> st_ok st'.
Proof.
  intros Px E S a n Pa. rewrite E. simpl. destruct (String.eqb x a) eqn:Exa; auto.
  apply String.eqb_eq in Exa. subst. rewrite (plen_prot _ _ Pa) in Px. discriminate.
Qed.

Lemma st_ok_set_type st x t : prot x = false -> st_ok st -> st_ok (set_type st x t).
Proof. intros Px. apply (st_ok_cons st _ x t Px). reflexivity. Qed.

Lemma st_ok_set_constant st x v : prot x = false -> st_ok st -> st_ok (set_constant st x v).
Proof.
  intros Px S. unfold set_constant.
  destruct (match v with EConst k => (CvRaw k, TyRaw) | EConstNode e => (CvNode e, TyNode e) | e => (CvNode e, TyNode e) end) as [c t].
  destruct (has_key (tys st) x).
  - apply (st_ok_tys st); auto.
  - apply (st_ok_cons st _ x t Px); auto.
Qed.

Section RwExp.
  Variable ext : string -> list val -> option val.
  Notation eval := (eval ext).

  Lemma fold_left_add l : forall acc, fold_left Z.add l acc = (acc + fold_right Z.add 0 l)%Z.
  Proof. induction l; intro acc; simpl; [lia|]. rewrite IHl. lia. Qed.

  Lemma sum_chain_cons x y r : sum_chain (x :: y :: r) = (c <- sum_chain (y :: r) ;; Ok (EBinOp Add x c)).
  Proof. reflexivity. Qed.

  (* sum(a) of at least two elements is the right-nested sum of the elements *)
  Lemma sum_chain_eval rho : forall es vs c,
    Forall2 (fun e v => eval rho e = Some v) es vs -> (2 <= List.length es)%nat -> sum_chain es = Ok c ->
    eval rho c = option_map (fun zs => VInt (fold_right Z.add 0%Z zs)) (all_some (map as_int vs)).
  Proof.
    induction es as [|x r IH]; intros vs c F L H; [simpl in L; lia|].
    destruct r as [|y r']; [simpl in L; lia|].
    inversion F as [|? vx ? vs1 Hx F1]; subst. inversion F1 as [|? vy ? vs2 Hy F2]; subst.
    destruct r' as [|z r''].
    - inversion F2; subst. simpl in H. inversion H; subst. simpl. rewrite Hx, Hy.
      unfold binop_val. destruct vx, vy; simpl; try reflexivity; repeat f_equal; lia.
    - rewrite sum_chain_cons in H. inv_bind H. inversion H; subst.
      assert (L' : (2 <= List.length (y :: z :: r''))%nat) by (simpl; lia).
      pose proof (IH _ _ F1 L' Ha) as E. simpl. rewrite Hx, E.
      cbn [map all_some]. destruct (all_some (map as_int (vy :: vs2))) as [zs|] eqn:Az.
      + cbn [map all_some] in Az. rewrite Az. simpl. destruct (as_int vx) as [zx|] eqn:Ax; simpl.
        * unfold binop_val. rewrite Ax. simpl. destruct vx; reflexivity.
        * unfold binop_val. rewrite Ax. destruct vx; simpl in *; try discriminate; reflexivity.
      + cbn [map all_some] in Az. rewrite Az. simpl. destruct (as_int vx); reflexivity.
  Qed.

  Lemma sum_chain_gexp okn lv : forall es c,
    forallb (gexp okn plen pbool pint lv) es = true -> sum_chain es = Ok c -> gexp okn plen pbool pint lv c = true.
  Proof.
    induction es as [|x r IH]; intros c G H; [discriminate|].
    simpl in G. apply andb_true_iff in G as [Gx Gr].
    destruct r as [|y r']; [simpl in H; inversion H; subst; auto|].
    rewrite sum_chain_cons in H. inv_bind H. inversion H; subst. simpl. now rewrite Gx, (IH _ Gr Ha).
  Qed.

  Lemma access_vals a whole : forall rest done, whole = done ++ rest ->
    Forall2 (fun r v => (exists k, r = access1 a k) /\ forall rho, rho a = Some (VTup whole) -> eval rho r = Some v)
            (map (access1 a) (List.seq (List.length done) (List.length rest))) rest.
  Proof.
    induction rest as [|v rest IH]; intros done E; simpl; constructor.
    - split; [eauto|]. intros rho H. simpl. rewrite H. unfold subscript_val. simpl. subst whole. apply index_list_mid.
    - replace (S (List.length done)) with (List.length (done ++ [v])) by (rewrite app_length; simpl; lia).
      apply IH. now rewrite <- app_assoc.
  Qed.

  (* all(a) / any(a) of booleans is the and / or of the elements *)
  Lemma boolop_bools rho op : forall es vs,
    Forall2 (fun e v => eval rho e = Some v) es vs -> forallb is_vbool vs = true -> es <> [] ->
    boolop_with (eval rho) op es =
    Some (VBool (match op with And => forallb truthy vs | Or => existsb truthy vs end)).
  Proof.
    induction 1 as [|x v r vs' Hx F IH]; intros B Ne; [congruence|].
    simpl in B. apply andb_true_iff in B as [Bv Bs]. destruct v as [b| |]; try discriminate.
    destruct r as [|y r'].
    - inversion F; subst. simpl. rewrite Hx. destruct op; simpl; [now rewrite andb_true_r|now rewrite orb_false_r].
    - rewrite boolop_with_cons2, Hx, IH by (auto; discriminate). destruct op, b; reflexivity.
  Qed.

  (* min(a) / max(a): the if-chain and the builtin both pick an extremum *)
  Definition is_extremum (is_max : bool) (zs : list Z) (m : Z) : Prop :=
    List.In m zs /\ forall z, List.In z zs -> if is_max then (z <= m)%Z else (m <= z)%Z.
  Definition better (is_max : bool) (zx zz : Z) : bool := if is_max then Z.ltb zz zx else Z.leb zx zz.

  Lemma is_extremum_unique (is_max : bool) zs m m' : is_extremum is_max zs m -> is_extremum is_max zs m' -> m = m'.
  Proof.
    intros [I1 H1] [I2 H2]. specialize (H1 _ I2). specialize (H2 _ I1). destruct is_max; lia.
  Qed.

  Lemma extreme_is_extremum (is_max : bool) : forall l zl cur zc v,
    as_int cur = Some zc -> all_some (map as_int l) = Some zl -> extreme is_max cur zc l = Some v ->
    exists m, as_int v = Some m /\ is_extremum is_max (zc :: zl) m /\ List.In v (cur :: l).
  Proof.
    induction l as [|x l IH]; intros zl cur zc v Hc Hl H; simpl in *.
    - inversion Hl; subst. inversion H; subst. exists zc. split; auto. split; [|now left].
      split; [now left|]. intros z [<-|[]]. destruct is_max; lia.
    - destruct (as_int x) as [zx|] eqn:Hx; try discriminate.
      destruct (all_some (map as_int l)) as [zl'|]; try discriminate. simpl in Hl. inversion Hl; subst zl.
      destruct (if is_max then (zc <? zx)%Z else (zx <? zc)%Z) eqn:C.
      + (* [x] is strictly better than [cur], so is the extremum of the rest *)
        destruct (IH zl' x zx v Hx eq_refl H) as (m & Hm & [I B] & Iv). exists m. split; auto.
        split; [|now right]. split; [now right|]. intros z [<-|Iz]; [|exact (B z Iz)].
        specialize (B zx (or_introl eq_refl)). destruct is_max; apply Z.ltb_lt in C; lia.
      + destruct (IH zl' cur zc v Hc eq_refl H) as (m & Hm & [I B] & Iv). exists m. split; auto.
        split; [|destruct Iv; [now left|now right; right]].
        split; [destruct I; [now left|now right; right]|].
        intros z [<-|[<-|Iz]]; [apply B; now left| |apply B; now right].
        specialize (B zc (or_introl eq_refl)). destruct is_max; apply Z.ltb_ge in C; lia.
  Qed.

  Lemma minmax_chain_cons op x y r :
    minmax_chain op (x :: y :: r) =
    (c <- minmax_chain op (y :: r) ;; Ok (EIfExp (EBoolOp And (map (fun z => ECompare op x z) (y :: r))) x c)).
  Proof. reflexivity. Qed.

  (* the test of the chain: [x] beats every element of [es] *)
  Lemma cmp_all_eval rho (is_max : bool) x vx zx : eval rho x = Some vx -> as_int vx = Some zx ->
    forall es vs zs, Forall2 (fun e v => eval rho e = Some v) es vs -> all_some (map as_int vs) = Some zs -> es <> [] ->
    eval rho (EBoolOp And (map (fun z => ECompare (if is_max then M_A2A.Gt else M_A2A.LtE) x z) es)) =
    Some (VBool (forallb (better is_max zx) zs)).
  Proof.
    intros Hx Ax es vs zs F Az.
    assert (Fc : Forall2 (fun e w => eval rho e = Some w)
                         (map (fun z => ECompare (if is_max then M_A2A.Gt else M_A2A.LtE) x z) es)
                         (map (fun zz => VBool (better is_max zx zz)) zs)).
    { revert zs Az. induction F as [|e w l l' He Fl IHl]; intros zs Az; simpl in *.
      - inversion Az; constructor.
      - destruct (as_int w) as [zw|] eqn:Aw; try discriminate.
        destruct (all_some (map as_int l')) as [zl|] eqn:Al; try discriminate. simpl in Az. inversion Az; subst.
        simpl. constructor; auto. simpl. rewrite Hx, He. unfold cmp_val. destruct is_max; now rewrite Ax, Aw. }
    intro Ne. cbn [M_A2A.eval]. rewrite (boolop_bools rho And _ _ Fc).
    - f_equal. f_equal. clear. induction zs; simpl; auto. now rewrite IHzs.
    - clear. induction zs; simpl; auto.
    - destruct es; [congruence|discriminate].
  Qed.

  Lemma minmax_chain_extremum rho (is_max : bool) : forall es vs zs c,
    Forall2 (fun e v => eval rho e = Some v) es vs -> all_some (map as_int vs) = Some zs -> es <> [] ->
    minmax_chain (if is_max then M_A2A.Gt else M_A2A.LtE) es = Ok c ->
    exists v m, eval rho c = Some v /\ List.In v vs /\ as_int v = Some m /\ is_extremum is_max zs m.
  Proof.
    intros es vs zs c F0. revert zs c. induction F0 as [|x vx r vs' Hx F IH]; intros zs c Hz Ne H; [congruence|].
    simpl in Hz. destruct (as_int vx) as [zx|] eqn:Ax; try discriminate.
    destruct (all_some (map as_int vs')) as [zr|] eqn:Ar; try discriminate. simpl in Hz. inversion Hz; subst zs.
    destruct r as [|y r'].
    - inversion F; subst. simpl in Ar. inversion Ar; subst. simpl in H. inversion H; subst.
      exists vx, zx. split; auto. split; [left; auto|]. split; auto. split; [left; auto|].
      intros z [<-|[]]. destruct is_max; lia.
    - rewrite minmax_chain_cons in H. inv_bind H. injection H as <-.
      destruct (IH zr a eq_refl) as (v & m & Ev & Iv & Am & Em); [discriminate|auto|].
      pose proof (cmp_all_eval rho is_max x vx zx Hx Ax _ _ _ F Ar ltac:(discriminate)) as T.
      cbn [map] in T. rewrite eval_ifexp, T. cbn [truthy].
      destruct (forallb (better is_max zx) zr) eqn:B.
      + exists vx, zx. rewrite Hx. split; auto. split; [left; auto|]. split; auto. split; [left; auto|].
        intros z [<-|Iz]; [destruct is_max; lia|].
        rewrite forallb_forall in B. specialize (B _ Iz). unfold better in B.
        destruct is_max; [apply Z.ltb_lt in B|apply Z.leb_le in B]; lia.
      + exists v, m. split; auto. split; [right; auto|]. split; auto.
        destruct Em as [Im Hm]. split; [right; auto|].
        intros z [<-|Iz]; [|exact (Hm _ Iz)].
        destruct (forallb_false_ex _ _ B) as (z0 & I0 & B0). specialize (Hm _ I0). unfold better in B0.
        destruct is_max; [apply Z.ltb_ge in B0|apply Z.leb_gt in B0]; lia.
  Qed.

  Lemma extreme_some (is_max : bool) : forall l zl cur zc,
    all_some (map as_int l) = Some zl -> exists v, extreme is_max cur zc l = Some v.
  Proof.
    induction l as [|x l IH]; intros zl cur zc H; simpl in *; eauto.
    destruct (as_int x) as [zx|]; try discriminate.
    destruct (all_some (map as_int l)) as [zl'|] eqn:E; try discriminate.
    destruct (if is_max then (zc <? zx)%Z else (zx <? zc)%Z); eauto.
  Qed.

  Lemma kinds_as_int vs : (forallb is_vbool vs = true \/ forallb is_vint vs = true) ->
    exists zs, all_some (map as_int vs) = Some zs.
  Proof.
    intro K. induction vs as [|v vs IH]; simpl; eauto.
    assert (K' : forallb is_vbool vs = true \/ forallb is_vint vs = true).
    { destruct K as [K|K]; simpl in K; apply andb_true_iff in K; destruct K; auto. }
    destruct (IH K') as (zs & E). rewrite E.
    destruct K as [K|K]; simpl in K; apply andb_true_iff in K; destruct K as [Kv _];
      destruct v; try discriminate; simpl; eauto.
  Qed.

  Lemma minmax_chain_gexp okn lv op : forall es c,
    forallb (gexp okn plen pbool pint lv) es = true -> minmax_chain op es = Ok c ->
    gexp okn plen pbool pint lv c = true.
  Proof.
    induction es as [|x r IH]; intros c G H; [discriminate|].
    simpl in G. apply andb_true_iff in G as [Gx Gr].
    destruct r as [|y r']; [simpl in H; inversion H; subst; auto|].
    rewrite minmax_chain_cons in H. inv_bind H. injection H as <-. cbn [gexp]. rewrite Gx, (IH _ Gr Ha), !andb_true_r.
    change (ECompare op x y :: map (fun z : exp => ECompare op x z) r') with (map (fun z : exp => ECompare op x z) (y :: r')).
    clear - Gx Gr. revert Gr. generalize (y :: r'). intro l. induction l as [|z l IHl]; intro Gr; simpl in *; auto.
    apply andb_true_iff in Gr as [Gz Gl]. now rewrite Gx, Gz, IHl.
  Qed.

  Lemma same_kind_eq vs v v' m :
    (forallb is_vbool vs = true \/ forallb is_vint vs = true) -> List.In v vs -> List.In v' vs ->
    as_int v = Some m -> as_int v' = Some m -> v = v'.
  Proof.
    intros K I I' A A'. destruct K as [K|K]; rewrite forallb_forall in K;
      pose proof (K _ I) as K1; pose proof (K _ I') as K2;
      destruct v, v'; simpl in *; try discriminate.
    - destruct b, b0; simpl in *; congruence.
    - congruence.
  Qed.

  Lemma minmax_chain_sound rho (is_max : bool) es vs c :
    Forall2 (fun e v => eval rho e = Some v) es vs ->
    (forallb is_vbool vs = true \/ forallb is_vint vs = true) -> es <> [] ->
    minmax_chain (if is_max then M_A2A.Gt else LtE) es = Ok c -> eval rho c = extreme_of is_max vs.
  Proof.
    intros F K Ne Hc. destruct (kinds_as_int _ K) as (zs & Az).
    destruct (minmax_chain_extremum rho is_max _ _ zs c F Az Ne Hc) as (v & m & Ev & Iv & Am & Em). rewrite Ev.
    destruct vs as [|v0 rest]; [inversion F; subst; congruence|].
    simpl in Az. destruct (as_int v0) as [z0|] eqn:A0; try discriminate.
    destruct (all_some (map as_int rest)) as [zr|] eqn:Ar; try discriminate. simpl in Az. inversion Az; subst zs.
    (* the builtin's extremum and the chain's have the same integer value, hence are equal *)
    destruct (extreme_some is_max rest zr v0 z0 Ar) as (v' & Ex).
    destruct (extreme_is_extremum is_max rest zr v0 z0 v' A0 Ar Ex) as (m' & Am' & Em' & Iv').
    assert (m = m') as <- by exact (is_extremum_unique is_max (z0 :: zr) _ _ Em Em').
    assert (v = v') as <- by exact (same_kind_eq (v0 :: rest) v v' m K Iv Iv' Am Am').
    unfold extreme_of. now rewrite A0, Ex.
  Qed.

  (* [kind_ok] read on the value of the sequence *)
  Definition kind_ok_vals (f : string) (vs : list val) : Prop :=
    kind_ok f (List.length vs) (forallb is_vbool vs = true) (forallb is_vint vs = true).

  Lemma kind_ok_vals_seqfun f vs : kind_ok_vals f vs -> is_seqfun f = true /\ is_builtin f = true.
  Proof. intros [->|[[-> _]|[[[->| ->] _]|[[->| ->] _]]]]; split; reflexivity. Qed.

  Lemma call_on_list_sound rho f es vs c :
    Forall2 (fun e v => eval rho e = Some v) es vs -> kind_ok_vals f vs -> call_on_list f es = Ok c ->
    eval rho c = builtin_val f [VTup vs].
  Proof.
    intros F K H. pose proof (Forall2_length _ _ _ F) as L.
    assert (Ne : (1 <= List.length vs)%nat -> es <> []) by (destruct es; [simpl in L; lia|discriminate]).
    destruct K as [->|[[-> Ln]|[[Hf [Ln Bv]]|[Hf [Ln Kv]]]]].
    - inversion H; subst. cbn [M_A2A.eval val_of_cst]. rewrite L. reflexivity.
    - change (sum_chain es = Ok c) in H. rewrite (sum_chain_eval rho _ _ _ F ltac:(lia) H).
      change (builtin_val "sum" [VTup vs])
        with (option_map (fun zs => VInt (fold_left Z.add zs 0%Z)) (all_some (map as_int vs))).
      destruct (all_some (map as_int vs)); simpl; auto. now rewrite fold_left_add.
    - destruct Hf as [->| ->]; inversion H; subst; cbn [M_A2A.eval];
        now rewrite (boolop_bools rho _ _ _ F Bv (Ne Ln)).
    - destruct Hf as [->| ->].
      + exact (minmax_chain_sound rho false _ _ _ F Kv (Ne Ln) H).
      + exact (minmax_chain_sound rho true _ _ _ F Kv (Ne Ln) H).
  Qed.

  Lemma call_on_list_gexp okn lv f es c :
    forallb (gexp okn plen pbool pint lv) es = true -> call_on_list f es = Ok c ->
    gexp okn plen pbool pint lv c = true.
  Proof.
    intro G. unfold call_on_list.
    destruct (String.eqb f "len"); [intro H; inversion H; reflexivity|].
    destruct (String.eqb f "sum"); [now apply sum_chain_gexp|].
    destruct (String.eqb f "any"); [intro H; inversion H; exact G|].
    destruct (String.eqb f "all"); [intro H; inversion H; exact G|].
    destruct (String.eqb f "max"); [now apply minmax_chain_gexp|].
    destruct (String.eqb f "min"); [now apply minmax_chain_gexp|discriminate].
  Qed.

  Lemma rw_call_seq st f y :
    dunder y = false -> is_seqfun f = true ->
    rw_exp st (ECall f [EName y]) = (l <- unroll_arg st (EName y) ;; call_on_list f l).
  Proof.
    intros Dy Hf. cbn [rw_exp mapM bind]. rewrite Dy. cbn [bind].
    unfold is_seqfun in Hf. cbn [existsb] in Hf.
    repeat (apply orb_true_iff in Hf as [Hf|Hf]); try discriminate Hf;
      apply String.eqb_eq in Hf; subst f; reflexivity.
  Qed.

  Lemma rw_call_plain st f args :
    existsb (String.eqb f) special_calls = false ->
    rw_exp st (ECall f args) = (args' <- mapM (rw_exp st) args ;; Ok (ECall f args')).
  Proof.
    intro Sf. destruct (special_false _ Sf) as (F1 & F2 & F3 & F4 & F5 & F6 & F7 & F8 & F9 & F10 & F11).
    assert (Hs : is_seqfun f = false) by (unfold is_seqfun; cbn [existsb]; now rewrite F1, F2, F3, F4, F5, F6).
    cbn [rw_exp]. set (generic := bind (mapM (rw_exp st) args) _).
    assert (Eg : generic = (args' <- mapM (rw_exp st) args ;; Ok (ECall f args')))
      by (unfold generic; now rewrite F1, F2, F3, F4, F5, F6, F8, F9, F10, F11).
    clearbody generic. destruct args as [|[] [|]]; try exact Eg. now rewrite Hs, andb_false_r.
  Qed.

  Lemma unroll_typed st y n :
    st_ok st -> plen y = Some n -> unroll_arg st (EName y) = Ok (map (access1 y) (List.seq 0 n)).
  Proof. intros S Py. destruct (S _ _ Py) as (tl & Hty & <-). unfold unroll_arg. now rewrite Hty. Qed.

  Lemma typed_elems y n :
    plen y = Some n ->
    exists vals, rho0 y = Some (VTup vals) /\ List.length vals = n /\
                 Forall2 (fun r v => (exists k, r = access1 y k) /\ forall rho, Inv rho -> eval rho r = Some v)
                         (map (access1 y) (List.seq 0 n)) vals.
  Proof.
    intro Py. destruct (conf0 _ _ Py) as (vals & Hv & <-). exists vals. split; [|split]; auto.
    pose proof (plen_prot _ _ Py) as Pry.
    eapply Forall2_imp; [|exact (access_vals y vals vals [] eq_refl)].
    intros r v [Hk Hr]. split; auto. intros rho J. apply Hr. now rewrite (J y Pry).
  Qed.

  Lemma access_guard okn lv y l : okn y = true -> forallb (gexp okn plen pbool pint lv) (map (access1 y) l) = true.
  Proof. intro Oy. induction l; simpl; auto. now rewrite Oy, IHl. Qed.

  (* the guard's builtin call of a typed argument, read on the initial environment *)
  Lemma typed_call_vals okn f args :
    typed_call okn plen pbool pint f args = true ->
    exists y vals, args = [EName y] /\ okn y = true /\ prot y = true /\ plen y = Some (List.length vals) /\
                   rho0 y = Some (VTup vals) /\ kind_ok_vals f vals.
  Proof.
    intro Gt. destruct (typed_call_inv _ _ _ Gt) as (y & n & -> & Oy & Py & Hf).
    destruct (conf0 _ _ Py) as (vals & Hv & <-). exists y, vals.
    repeat split; auto. { exact (plen_prot _ _ Py). }
    revert Hf. apply kind_ok_mono.
    - intro Pb. destruct (confb0 _ Pb) as (vals' & Hv' & Bv). congruence.
    - intro Pi. destruct (confi0 _ Pi) as (vals' & Hv' & Bv). congruence.
  Qed.

  Lemma rw_binop st op a b :
    negb (binop_eqb op Pow) = true ->
    rw_exp st (EBinOp op a b) = (a' <- rw_exp st a ;; b' <- rw_exp st b ;; Ok (EBinOp op a' b')).
  Proof. cbn [rw_exp]. destruct op; try discriminate; reflexivity. Qed.

  (* inside the guard ASTRewriter changes an expression only by List -> Tuple and by expanding the
     builtins of typed tuple arguments *)
  Lemma rw_exp_sound st e : st_ok st -> forall e',
    gexp visible plen pbool pint [] e = true -> rw_exp st e = Ok e' -> stands ext Inv visible [] e e'.
  Proof.
    intro S.
    induction e as [x|c|e IHe|op l IHl|op e1 e2 IHe1 IHe2|op e IHe|op e1 e2 IHe1 IHe2|e1 e2 e3 IHe1 IHe2 IHe3|l IHl|l IHl|e1 e2 IHe1 IHe2|f args IHl]
      using exp_ind2; intro e'; cbn [gexp]; intro G.
    - cbn [rw_exp]. intro H. destruct (visible_inv _ G) as [D _]. rewrite D in H. inversion H; subst. now apply stands_refl.
    - intro H. inversion H; subst. now apply stands_refl.
    - discriminate.
    - cbn [rw_exp]. intro H. inv_bind H. inversion H; subst. apply stands_boolop, (mapM_Forall2 _ _ _ _ IHl _ G Ha).
    - apply andb3_true in G as (Gop & Ga & Gb).
      rewrite (rw_binop _ _ _ _ Gop). intro H. inv_bind H. inv_bind H. inversion H; subst. apply stands_binop; auto.
    - cbn [rw_exp]. intro H. inv_bind H. inversion H; subst. apply stands_unop; auto.
    - apply andb_true_iff in G as [Ga Gb].
      cbn [rw_exp]. intro H. inv_bind H. inv_bind H. inversion H; subst. apply stands_cmp; auto.
    - apply andb3_true in G as (Gc & Gt & Gf).
      cbn [rw_exp]. intro H. inv_bind H. inv_bind H. inv_bind H. inversion H; subst. apply stands_ifexp; auto.
    - cbn [rw_exp]. intro H. inv_bind H. inversion H; subst. apply stands_tuple, (mapM_Forall2 _ _ _ _ IHl _ G Ha).
    - cbn [rw_exp]. intro H. inv_bind H. inversion H; subst. exact (stands_tuple _ _ _ _ _ _ (mapM_Forall2 _ _ _ _ IHl _ G Ha)).
    - (* outside every loop the index is a constant: the subscript is kept *)
      apply andb_true_iff in G as [Gv Gs]. destruct e2; try discriminate.
      + simpl in Gs. rewrite andb_false_r in Gs. discriminate.
      + intro H. inversion H; subst. apply stands_refl. cbn [gexp]. now rewrite Gv, Gs.
    - intro H. apply orb_true_iff in G as [G|Gt].
      2:{ (* a builtin of a typed tuple argument *)
          destruct (typed_call_vals _ _ _ Gt) as (y & vals & -> & Vy & Pry & Py & Hv & K).
          destruct (visible_inv _ Vy) as (Dy & _). destruct (kind_ok_vals_seqfun _ _ K) as (Sf & Bf).
          destruct (typed_elems _ _ Py) as (vals' & Hv' & _ & Fv). rewrite Hv in Hv'. inversion Hv'; subst vals'.
          rewrite (rw_call_seq _ _ _ Dy Sf), (unroll_typed _ _ _ S Py) in H. cbn [bind] in H. split.
          - intros rho J.
            rewrite (call_on_list_sound rho _ _ _ _ (Forall2_imp _ _ _ _ (fun r v Hr => proj2 Hr rho J) Fv) K H).
            cbn [M_A2A.eval map all_some]. now rewrite (J y Pry), Hv, Bf.
          - exact (call_on_list_gexp _ _ _ _ _ (access_guard _ _ _ _ Vy) H). }
      apply andb_true_iff in G as [Gf Ga]. apply negb_true_iff in Gf.
      rewrite (rw_call_plain _ _ _ Gf) in H. inv_bind H. inversion H; subst.
      apply stands_call, (mapM_Forall2 _ _ _ _ IHl _ Ga Ha). exact Gf.
  Qed.

End RwExp.

(* No tuple target is left: what ReplaceMultiTargetAssign establishes ([multi_list_notup]).  ASTRewriter
   raises on one (`targets[0].id`: AttributeError), so [rw_spec] and [subst_spec] assume it. *)
Fixpoint notup (s : stmt) : bool :=
  match s with
  | SAssign (TTuple _) _ => false
  | SIf _ b o => forallb notup b && forallb notup o
  | SFor _ _ b o => forallb notup b && forallb notup o
  | _ => true
  end.

Lemma multi_notup s : forall l, multi_stmt s = Ok l -> forallb notup l = true.
Proof.
  assert (S : forall v names k, forallb notup (singles v names k) = true).
  { intros v names; induction names; intro k; simpl; auto. }
  induction s as [t e|x op e|c b o Hb Ho|x it b fo Hb Hfo|e|e] using stmt_ind2; intro l; cbn [multi_stmt]; intro H.
  - destruct t.
    + inversion H; auto.
    + inv_bind H. destruct e; try (destruct (existsb _ a)); inversion H; subst; simpl; auto using S.
  - inversion H; auto.
  - inv_bind H. inv_bind H. inversion H; subst. simpl.
    now rewrite (flat_mapM_forallb _ _ _ Hb _ Ha), (flat_mapM_forallb _ _ _ Ho _ Ha0).
  - inv_bind H. inv_bind H. inversion H; subst. simpl.
    now rewrite (flat_mapM_forallb _ _ _ Hb _ Ha), (flat_mapM_forallb _ _ _ Hfo _ Ha0).
  - inversion H; auto.
  - inversion H; auto.
Qed.

Lemma multi_list_notup b b' : multi_list b = Ok b' -> forallb notup b' = true.
Proof. apply flat_mapM_forallb, Forall_forall. intros s _. apply multi_notup. Qed.

Lemma gstmt_assigns okn a s :
  prot a = true -> forall lv, gstmt okn plen pbool pint lv s = true -> assigns_name a s = false.
Proof.
  intro Pa. pose proof (fun y => okt_not_prot okn a y Pa) as NE.
  induction s as [t e|x op e|c b o Hb Ho|x it b fo Hb Hfo|e|e] using stmt_ind2; intro lv;
    cbn [gstmt assigns_name]; intro G; auto.
  - destruct t as [x|tl]; auto. apply andb_true_iff in G as [Gx _]. auto.
  - apply andb3_true in G as (Gx & _ & _). auto.
  - apply andb3_true in G as (_ & Gb & Go).
    now rewrite (existsb_false_impl _ _ _ (Forall_inst _ _ lv Hb) Gb), (existsb_false_impl _ _ _ (Forall_inst _ _ lv Ho) Go).
  - apply andb3_true in G as (_ & Gb & Go).
    now rewrite (existsb_false_impl _ _ _ (Forall_inst _ _ _ Hb) Gb), (existsb_false_impl _ _ _ (Forall_inst _ _ lv Hfo) Go).
Qed.

Lemma glist_assigns okn a lv l :
  prot a = true -> forallb (gstmt okn plen pbool pint lv) l = true -> existsb (assigns_name a) l = false.
Proof. intro Pa. apply existsb_false_impl, Forall_forall. intros s _. now apply gstmt_assigns. Qed.

Section LoopVar.
  Variable x : string.
  Lemma upd_other rho y v : String.eqb y x = false -> upd rho y v x = rho x.
  Proof. unfold upd. intros ->. reflexivity. Qed.
End LoopVar.

Lemma upd_keep rho y v t : y <> t -> upd rho y v t = rho t.
Proof. intro N. apply upd_other. now apply String.eqb_neq. Qed.

Section Subst.
  Variable ext : string -> list val -> option val.
  Notation eval := (eval ext).
  Notation exec := (exec ext).
  Notation exec_list := (exec_list ext).
  Notation iter_vals := (iter_vals ext).
  Variable okn : string -> bool.
  Variable x : string.
  (* NameValReplacer (subst_stmt) replaces the loop variable [x] by an element [re] of the iterator:
     inside the guard wherever it stands, no call, and independent of the names the program may bind *)
  Variable re : exp.
  Hypothesis Px : prot x = false.
  Hypothesis Gre : forall lv, gexp okn plen pbool pint lv re = true.
  Hypothesis re_not_call : forall g, is_call g re = None.
  Hypothesis re_stable : forall rho y v, prot y = false -> eval (upd rho y v) re = eval rho re.

  (* the environments of the loop body: [x] has the value of [re] *)
  Definition St (rho : env) : Prop := eval rho re = rho x.

  Lemma St_upd rho y v : String.eqb y x = false -> prot y = false -> St rho -> St (upd rho y v).
  Proof. intros E Py X. unfold St. now rewrite re_stable, upd_other. Qed.

  (* the loop variables that may index a subscript, before and after: the same apart from [x],
     and [x] is among them only if [re] is a constant *)
  Definition lv_after (lv lv' : list string) : Prop :=
    (forall i, String.eqb i x = false -> existsb (String.eqb i) lv' = existsb (String.eqb i) lv) /\
    (existsb (String.eqb x) lv = true -> valued_const re = true).

  Lemma lv_after_cons y lv lv' : String.eqb y x = false -> lv_after lv lv' -> lv_after (y :: lv) (y :: lv').
  Proof.
    intros E [A B]. split.
    - intros i Ei. simpl. now rewrite (A i Ei).
    - simpl. now rewrite String.eqb_sym, E.
  Qed.

  Section Exp.
    Variables lv lv' : list string.
    Hypothesis A : lv_after lv lv'.

    Lemma subst_index s s' :
      gidx okn lv s = true -> subst_exp x re s = Ok s' ->
      (forall rho, St rho -> eval rho s' = eval rho s) /\ gidx okn lv' s' = true.
    Proof.
      intros G H. destruct s; try discriminate G; cbn [subst_exp] in H; inversion H; subst; [|auto].
      simpl in G. apply andb_true_iff in G as [Gx Gl]. destruct (String.eqb x0 x) eqn:E.
      - apply String.eqb_eq in E. subst x0. split; [intros rho X; exact X|].
        pose proof (proj2 A Gl) as C. destruct re; try discriminate C. exact C.
      - split; auto. simpl. now rewrite Gx, (proj1 A _ E).
    Qed.

    Lemma subst_exp_sound e : forall e',
      gexp okn plen pbool pint lv e = true -> subst_exp x re e = Ok e' -> stands ext St okn lv' e e'.
    Proof.
      induction e as [y|k|e IHe|op l IHl|op e1 e2 IHe1 IHe2|op e IHe|op e1 e2 IHe1 IHe2|e1 e2 e3 IHe1 IHe2 IHe3|l IHl|l IHl|e1 e2 IHe1 IHe2|f args IHl]
        using exp_ind2; intro e'; cbn [gexp subst_exp]; intros G H.
      - inversion H; subst. destruct (String.eqb y x) eqn:E; [|now apply stands_refl].
        apply String.eqb_eq in E. subst y. split; [intros rho X; exact X|apply Gre].
      - inversion H; subst. now apply stands_refl.
      - discriminate.
      - inv_bind H. inversion H; subst. apply stands_boolop, (mapM_Forall2 _ _ _ _ IHl _ G Ha).
      - apply andb3_true in G as (Gop & Ga & Gb).
        inv_bind H. inv_bind H. inversion H; subst. apply stands_binop; auto.
      - inv_bind H. inversion H; subst. apply stands_unop; auto.
      - apply andb_true_iff in G as [Ga Gb].
        inv_bind H. inv_bind H. inversion H; subst. apply stands_cmp; auto.
      - apply andb3_true in G as (Gc & Gt & Gf).
        inv_bind H. inv_bind H. inv_bind H. inversion H; subst. apply stands_ifexp; auto.
      - inv_bind H. inversion H; subst. apply stands_tuple, (mapM_Forall2 _ _ _ _ IHl _ G Ha).
      - inv_bind H. inversion H; subst. exact (stands_tuple _ _ _ _ _ _ (mapM_Forall2 _ _ _ _ IHl _ G Ha)).
      - apply andb_true_iff in G as [Gv Gs].
        inv_bind H. inv_bind H. inversion H; subst. destruct (subst_index _ _ Gs Ha0) as [Es Gs'].
        apply stands_subscript; auto.
      - destruct (String.eqb f x); try discriminate. apply orb_true_iff in G as [G|Gt].
        2:{ (* a builtin of a typed argument, which is not [x] *)
            destruct (typed_call_inv _ _ _ Gt) as (y & n & -> & Oy & Py & _).
            cbn [mapM subst_exp bind] in H. destruct (String.eqb y x) eqn:E.
            - apply String.eqb_eq in E. subst y. rewrite (plen_prot _ _ Py) in Px. discriminate.
            - inversion H; subst. apply stands_refl. cbn [gexp]. rewrite Gt. apply orb_true_r. }
        apply andb_true_iff in G as [Gf Ga]. apply negb_true_iff in Gf.
        inv_bind H. inversion H; subst. apply stands_call, (mapM_Forall2 _ _ _ _ IHl _ Ga Ha). exact Gf.
    Qed.
  End Exp.

  Lemma subst_range args e' :
    subst_exp x re (ECall "range" args) = Ok e' ->
    exists args', mapM (subst_exp x re) args = Ok args' /\ e' = ECall "range" args'.
  Proof.
    cbn [subst_exp]. destruct (String.eqb "range" x); try discriminate.
    intro H. inv_bind H. inversion H; eauto.
  Qed.

  Lemma subst_iter_keeps it it' :
    const_iter it = true \/ (exists a, name_iter plen it = Some a) -> subst_exp x re it = Ok it' -> it' = it.
  Proof.
    intros [C|[a N]] H.
    - destruct it; try discriminate C; cbn [subst_exp] in H; rewrite (mapM_const_list (subst_exp x re) _ (fun _ => eq_refl) C) in H; now inversion H.
    - destruct it; try discriminate N. simpl in N. destruct (M_A2A.prot plen x0) eqn:Pz; try discriminate.
      cbn [subst_exp] in H. destruct (String.eqb x0 x) eqn:E; [|now inversion H].
      apply String.eqb_eq in E. subst. congruence.
  Qed.

  Definition subst_spec (s : stmt) : Prop :=
    forall inner lv lv' s', lv_after lv lv' -> notup s = true -> gstmt okn plen pbool pint lv s = true ->
                            subst_stmt inner x re s = Ok s' ->
                            (gstmt okn plen pbool pint lv' s' = true /\ notup s' = true) /\ same_on St (exec s) (exec s').

  Definition subst_list_spec (b : list stmt) : Prop :=
    forall inner lv lv' b', lv_after lv lv' -> forallb notup b = true -> forallb (gstmt okn plen pbool pint lv) b = true ->
                            mapM (subst_stmt inner x re) b = Ok b' ->
                            (forallb (gstmt okn plen pbool pint lv') b' = true /\ forallb notup b' = true) /\
                            same_on St (exec_list b) (exec_list b').

  Lemma subst_list_sound b : Forall subst_spec b -> subst_list_spec b.
  Proof.
    induction 1 as [|s r Hs Hr IH]; intros inner lv lv' b' A N G H; simpl in H.
    - inversion H; subst. split; auto. apply same_on_nil.
    - simpl in N, G. apply andb_true_iff in N as [Ns Nr]. apply andb_true_iff in G as [Gs Gr].
      inv_bind H. inv_bind H. inversion H; subst.
      destruct (Hs _ _ _ _ A Ns Gs Ha) as ((G1 & N1) & E1). destruct (IH _ _ _ _ A Nr Gr Ha0) as ((G2 & N2) & E2).
      split; [simpl; now rewrite G1, N1, G2, N2|].
      exact (same_on_seq _ _ _ _ _ E1 E2).
  Qed.

  Lemma subst_stmt_sound s : subst_spec s.
  Proof.
    induction s as [t e|y op e|k b o Hb Ho|y it b fo Hb Hfo|e|e] using stmt_ind2; intros inner lv lv' s' A;
      cbn [subst_stmt gstmt notup]; intros N G H.
    - destruct t as [y|tl]; [|discriminate].
      destruct (String.eqb y x) eqn:Eyx; [destruct inner; discriminate|].
      apply andb_true_iff in G as [Gy Ge]. destruct (okt_inv _ _ Gy) as (_ & Py).
      inv_bind H. inversion H; subst. destruct (subst_exp_sound _ _ A _ _ Ge Ha) as [Ee Ge'].
      split; [cbn [gstmt notup]; now rewrite Gy, Ge'|].
      exact (same_on_assign ext St y e a Ee (fun r v => St_upd r y v Eyx Py)).
    - destruct (String.eqb y x) eqn:Eyx; [destruct inner; discriminate|].
      apply andb3_true in G as (Gy & Gop & Ge). destruct (okt_inv _ _ Gy) as (_ & Py).
      inv_bind H. inversion H; subst. destruct (subst_exp_sound _ _ A _ _ Ge Ha) as [Ee Ge'].
      split; [cbn [gstmt notup]; now rewrite Gy, Gop, Ge'|].
      exact (same_on_aug ext St y op e a Ee (fun r v => St_upd r y v Eyx Py)).
    - apply andb_true_iff in N as [Nb No].
      apply andb3_true in G as (Gc & Gb & Go).
      inv_bind H. inv_bind H. inv_bind H. inversion H; subst.
      destruct (subst_exp_sound _ _ A _ _ Gc Ha) as [Ec Gc'].
      destruct (subst_list_sound _ Hb _ _ _ _ A Nb Gb Ha0) as ((G1 & N1) & Eb).
      destruct (subst_list_sound _ Ho _ _ _ _ A No Go Ha1) as ((G2 & N2) & Eo).
      split; [cbn [gstmt notup]; now rewrite Gc', G1, G2, N1, N2|].
      exact (same_on_if ext St _ _ _ _ _ _ Ec Eb Eo).
    - apply andb_true_iff in N as [N No].
      destruct (String.eqb y x) eqn:Eyx; [destruct inner; discriminate|].
      apply andb5_true in G as (Gy & Gi & Gn & Gb & Go). destruct (okt_inv _ _ Gy) as (_ & Py).
      inv_bind H. inv_bind H. inv_bind H. inversion H; subst.
      destruct (iter_pass ext St okn lv lv' _ (subst_exp_sound _ _ A) subst_range subst_iter_keeps _ _ Gi Ha)
        as (Ei & Gi' & En).
      assert (Ab : lv_after (body_lv plen y lv it) (body_lv plen y lv' it)).
      { unfold body_lv. destruct (name_iter plen it); [exact A|now apply lv_after_cons]. }
      destruct (subst_list_sound _ Hb true _ _ _ Ab N Gb Ha0) as ((G1 & N1) & Eb).
      destruct (subst_list_sound _ Hfo inner _ _ _ A No Go Ha1) as ((G2 & N2) & Eo).
      split.
      + cbn [gstmt notup]. unfold body_lv in *. rewrite En, Gy, Gi', (proj1 A _ Eyx), Gn, G1, N1, G2, N2. split; reflexivity.
      + exact (same_on_for ext St y _ _ _ _ _ _ Ei (fun r v => St_upd r y v Eyx Py) Eb Eo).
    - inv_bind H. inversion H; subst. destruct (subst_exp_sound _ _ A _ _ G Ha) as [Ee Ge'].
      split; [auto|]. exact (same_on_return ext St _ _ Ee).
    - destruct e as [e|].
      + inv_bind H. inversion H; subst. destruct (subst_exp_sound _ _ A _ _ G Ha) as [Ee Ge'].
        split; [auto|]. exact (same_on_expr ext St _ _ Ee (gexp_not_print _ _ _ G) (gexp_not_print _ _ _ Ge')).
      + inversion H; subst. split; auto. exact (same_on_nil ext St).
  Qed.

  Lemma subst_body_sound b : subst_list_spec b.
  Proof. apply subst_list_sound, Forall_forall. intros s _. apply subst_stmt_sound. Qed.
End Subst.

Section Rw.
  Variable ext : string -> list val -> option val.
  Notation eval := (eval ext).
  Notation exec := (exec ext).
  Notation exec_list := (exec_list ext).
  Notation iter_vals := (iter_vals ext).

  (* what the rewriter emits: assignments to names, Return, Expr; a target `_iftargK` has
     lo < K <= hi (the counter before / after) *)
  Definition stmt_shape (lo hi : N) (s : stmt) : Prop :=
    match s with
    | SAssign (TName y) _ =>
        prot y = false /\ (is_iftarg y = true -> exists k, (lo < k <= hi)%N /\ y = iftarg_name k)
    | SReturn _ | SExpr _ => True
    | _ => False
    end.
  Definition shape lo hi (l : list stmt) : Prop := Forall (stmt_shape lo hi) l.

  Lemma tmp_not_prot x : prot (tmp x) = false.
  Proof. apply not_user_not_prot. unfold user_name. now rewrite tmp_dunder. Qed.
  Lemma iftarg_not_prot u : prot (iftarg_name u) = false.
  Proof.
    apply not_user_not_prot. unfold user_name, reserved. fold (is_iftarg (iftarg_name u)).
    rewrite iftarg_is. rewrite orb_true_r. simpl. rewrite ?andb_false_r. reflexivity.
  Qed.

  Lemma shape_mono lo hi lo' hi' l : (lo' <= lo)%N -> (hi <= hi')%N -> shape lo hi l -> shape lo' hi' l.
  Proof.
    intros L1 L2 S. induction S as [|s l Hs Hl IH]; constructor; auto.
    destruct s as [[y|]| | | | |]; simpl in *; auto.
    destruct Hs as [Hp Hs]. split; auto.
    intro I. destruct (Hs I) as (k & K & E). exists k. split; auto. lia.
  Qed.

  Lemma shape_app lo hi l1 l2 : shape lo hi l1 -> shape lo hi l2 -> shape lo hi (l1 ++ l2).
  Proof. intros S1 S2. apply Forall_app. auto. Qed.

  Definition target_of (s : stmt) : option string :=
    match s with SAssign (TName y) _ => Some y | _ => None end.

  Lemma shape_fresh lo hi l u :
    shape lo hi l -> (hi < u)%N -> Forall (fun b => target_of b <> Some (iftarg_name u)) l.
  Proof.
    intros S L. induction S as [|s l Hs Hl IH]; constructor; auto.
    destruct s as [[y|]| | | | |]; simpl in *; try discriminate.
    intro E. inversion E; subst y. destruct Hs as [_ Hs]. destruct (Hs (iftarg_is u)) as (k & K & Ek).
    apply iftarg_inj in Ek. lia.
  Qed.

  Lemma one_shape lo hi x e : visible x = true -> prot x = false -> stmt_shape lo hi (SAssign (TName x) e).
  Proof. intros V Px. split; auto. intro I. destruct (visible_inv _ V). congruence. Qed.

  Lemma tmp_shape lo hi x e : stmt_shape lo hi (SAssign (TName (tmp x)) e).
  Proof.
    split; [apply tmp_not_prot|].
    intro I. pose proof (tmp_dunder x) as D. unfold is_iftarg, dunder, iftarg_prefix, tmp in *.
    simpl in *. destruct x as [|a s]; simpl in *; discriminate.
  Qed.

  (* x = v for x = e, and __x = v; x = __x for it: what the rewriter's postcondition asks of them *)
  Lemma assign_sound lo hi x e v :
    visible x = true -> prot x = false -> gexp visible plen pbool pint [] e = true ->
    stands ext Inv visible [] e v ->
    shape lo hi [SAssign (TName x) v] /\ forallb (gstmt anyn plen pbool pint []) [SAssign (TName x) v] = true /\
    bsim visible (exec (SAssign (TName x) e)) (exec_list [SAssign (TName x) v]).
  Proof.
    intros Vx Px G [E Gv]. split; [|split].
    - constructor; [now apply one_shape|constructor].
    - cbn [forallb gstmt]. rewrite (gexp_anyn _ _ _ Gv).
      unfold okt, anyn. now rewrite Px.
    - apply bsim_single, (bsim_assign ext visible []); auto.
  Qed.

  Lemma tmp_assign_sound lo hi x e v :
    visible x = true -> prot x = false -> gexp visible plen pbool pint [] e = true ->
    stands ext Inv visible [] e v ->
    let l := [SAssign (TName (tmp x)) v; SAssign (TName x) (EName (tmp x))] in
    shape lo hi l /\ forallb (gstmt anyn plen pbool pint []) l = true /\
    bsim visible (exec (SAssign (TName x) e)) (exec_list l).
  Proof.
    intros Vx Px G [E Gv]. split; [|split].
    - constructor; [apply tmp_shape|constructor; [now apply one_shape|constructor]].
    - cbn [forallb gstmt gexp]. rewrite (gexp_anyn _ _ _ Gv).
      unfold okt, anyn. now rewrite tmp_not_prot, Px.
    - intros rho rho' o' J R H.
      rewrite exec_list_cons in H. cbn [M_A2A.exec] in H. rewrite (eval_back ext visible [] e v rho rho' G E J R) in H.
      cbn [M_A2A.exec]. destruct (eval rho e) as [w|]; try discriminate.
      rewrite exec_list_single in H. cbn [M_A2A.exec M_A2A.eval] in H.
      unfold upd at 1 in H. rewrite String.eqb_refl in H. inversion H; subst.
      exists (upd rho x w, None). split; auto. split; [split|]; simpl; auto.
      + apply Ragree_upd. apply Ragree_upd_r; auto. apply tmp_invisible.
      + apply Inv_upd; auto. apply Inv_upd; auto. apply tmp_not_prot.
  Qed.

  Lemma aug_as_assign x op e rho :
    exec (SAugAssign x op e) rho = exec (SAssign (TName x) (EBinOp op (EName x) e)) rho.
  Proof.
    simpl. destruct (rho x) as [a|]; auto; destruct (eval rho e) as [b|]; auto;
      destruct (binop_val op a b); auto.
  Qed.

  Lemma uq_set_constant st x v : uq (set_constant st x v) = uq st.
  Proof. unfold set_constant. destruct v; destruct (has_key (tys st) x); reflexivity. Qed.

  (* visit_Assign, first half: a type or a constant is recorded for x; a literal is visited *)
  Lemma assign_env_sound st x e st1 e1 :
    st_ok st -> prot x = false -> gexp visible plen pbool pint [] e = true -> assign_env st x e = Ok (st1, e1) ->
    (uq st1 = uq st /\ st_ok st1) /\ stands ext Inv visible [] e e1.
  Proof.
    intros S Px G H.
    assert (Ty : forall t, uq (set_type st x t) = uq st /\ st_ok (set_type st x t))
      by (intro t; split; [reflexivity|now apply st_ok_set_type]).
    assert (Cn : forall v, uq (set_constant st x v) = uq st /\ st_ok (set_constant st x v))
      by (intro v; split; [apply uq_set_constant|now apply st_ok_set_constant]).
    assert (Lit : bind (rw_exp st e) (fun r1 =>
                    if Bool.eqb (name_in x e) (name_in x r1) then Ok (set_constant st x r1, r1) else Unmod) = Ok (st1, e1) ->
                  (uq st1 = uq st /\ st_ok st1) /\ stands ext Inv visible [] e e1).
    { intro H'. inv_bind H'. destruct (Bool.eqb _ _); try discriminate. inversion H'; subst.
      split; [apply Cn|exact (rw_exp_sound ext st _ S _ G Ha)]. }
    destruct e; unfold assign_env in H; try discriminate G; try (exact (Lit H));
      try (inversion H; subst; split; [apply Ty || apply Cn|now apply stands_refl]).
    destruct (in_env st x0); [destruct (assoc (tys st) x0)|]; inversion H; subst;
      (split; [apply Ty|now apply stands_refl]).
  Qed.

  (* how visit_If wraps a statement of the (already rewritten) body ([pos] = true): y = e if t else y,
     or of the orelse: y = y if t else e, a name of the rewriter's own left alone *)
  Definition wrapped (t : string) (pos : bool) (e : exp) (o : string) : exp :=
    if pos then EIfExp (EName t) e (EName o) else EIfExp (EName t) (EName o) e.
  Definition Wrap (t : string) (pos : bool) (b wb : stmt) : Prop :=
    exists y e, b = SAssign (TName y) e /\
                ((wb = b /\ visible y = false) \/
                 exists o, wb = SAssign (TName y) (wrapped t pos e o) /\ (visible y = true -> o = y)).

  Lemma wrap_body_Wrap st t l bl : mapM (wrap_body st t) l = Ok bl -> Forall2 (Wrap t true) l bl.
  Proof.
    intro H. apply mapM_ok in H. induction H as [|b wb l bl H Hl IH]; constructor; auto.
    destruct b as [[y|]| | | | |]; simpl in H; try discriminate. inversion H; subst.
    exists y, e. split; auto. right. exists (if dunder y && negb (in_env st y) then drop2 y else y). split; auto.
    intro V. destruct (visible_inv _ V) as [D _]. now rewrite D.
  Qed.

  Lemma wrap_else_Wrap st t l ol : mapM (wrap_else st t) l = Ok ol -> Forall2 (Wrap t false) l ol.
  Proof.
    intro H. apply mapM_ok in H. induction H as [|b wb l ol H Hl IH]; constructor; auto.
    destruct b as [[y|]| | | | |]; simpl in H; try discriminate. exists y, e. split; auto.
    destruct (dunder y && negb (in_env st y)) eqn:D.
    - inversion H; subst. right. exists (drop2 y). split; auto. intro V.
      destruct (visible_inv _ V) as [D' _]. rewrite D' in D. discriminate.
    - destruct (is_iftarg y) eqn:I; inversion H; subst.
      + left. split; auto. unfold visible. rewrite I. destruct (dunder y); reflexivity.
      + right. exists y. auto.
  Qed.

  Lemma Wrap_shape t pos lo hi l wl : Forall2 (Wrap t pos) l wl -> shape lo hi l -> shape lo hi wl.
  Proof.
    induction 1 as [|b wb l wl Hb Hl IH]; intro S; inversion S as [|? ? S1 S2]; subst; constructor.
    - destruct Hb as (y & e & -> & [[-> _]|(o & -> & _)]); exact S1.
    - exact (IH S2).
  Qed.

  Lemma Wrap_guard t pos l wl :
    Forall2 (Wrap t pos) l wl -> forallb (gstmt anyn plen pbool pint []) l = true ->
    forallb (gstmt anyn plen pbool pint []) wl = true.
  Proof.
    induction 1 as [|b wb l wl Hb Hl IH]; intro G; simpl in *; auto. apply andb_true_iff in G as [G1 G2].
    rewrite IH by auto. destruct Hb as (y & e & -> & [[-> _]|(o & -> & _)]); simpl in *.
    - now rewrite G1.
    - apply andb_true_iff in G1 as [G1a G1b]. rewrite G1a. destruct pos; simpl; now rewrite G1b.
  Qed.

  Lemma wrapped_eval rho t vc pos e o :
    rho t = Some vc ->
    eval rho (wrapped t pos e o) = if Bool.eqb (truthy vc) pos then eval rho e else rho o.
  Proof. intro X. destruct pos; cbn [wrapped M_A2A.eval]; rewrite X; destruct (truthy vc); reflexivity. Qed.

  (* the test selects the statements' own values: the wrapped list is the list *)
  Lemma Wrap_taken t pos vc l wl : Forall2 (Wrap t pos) l wl -> Bool.eqb (truthy vc) pos = true ->
    Forall (fun b => target_of b <> Some t) l ->
    forall rho, rho t = Some vc -> exec_list wl rho = exec_list l rho.
  Proof.
    induction 1 as [|b wb l wl Hb Hl IH]; intros T F rho X; auto.
    inversion F as [|? ? F1 F2]; subst. destruct Hb as (y & e & -> & [[-> _]|(o & -> & _)]);
      rewrite !exec_list_cons; cbn [M_A2A.exec]; rewrite ?(wrapped_eval _ _ _ _ _ _ X), ?T;
      destruct (eval rho e) as [w|]; auto; apply IH; auto; rewrite upd_keep; auto; simpl in F1; congruence.
  Qed.

  (* the test selects the old values: no visible name changes *)
  Lemma Wrap_skipped t pos vc l wl : Forall2 (Wrap t pos) l wl -> Bool.eqb (truthy vc) pos = false ->
    Forall (fun b => target_of b <> Some t) l ->
    forall rho o', rho t = Some vc -> exec_list wl rho = Some o' ->
    snd o' = None /\ (forall z, visible z = true -> fst o' z = rho z) /\ fst o' t = Some vc.
  Proof.
    induction 1 as [|b wb l wl Hb Hl IH]; intros T F rho o' X H.
    - inversion H; subst. simpl. auto.
    - inversion F as [|? ? F1 F2]; subst. destruct Hb as (y & e & -> & W).
      assert (Nt : y <> t) by (simpl in F1; congruence).
      (* in either form the statement binds [y] to some [u], and [y] had that value if it is visible *)
      assert (K : exists u, exec_list (wb :: wl) rho = exec_list wl (upd rho y u) /\ (visible y = true -> rho y = Some u)).
      { rewrite exec_list_cons. destruct W as [[-> Vy]|(o & -> & Vo)]; cbn [M_A2A.exec].
        - rewrite exec_list_cons in H. cbn [M_A2A.exec] in H. destruct (eval rho e) as [u|]; try discriminate.
          exists u. split; auto. congruence.
        - rewrite exec_list_cons in H. cbn [M_A2A.exec] in H. rewrite (wrapped_eval _ _ _ _ _ _ X), T in *.
          destruct (rho o) as [u|] eqn:Ro; try discriminate. exists u. split; auto. intro Vy. now rewrite <- (Vo Vy). }
      destruct K as (u & E & Vu). rewrite E in H.
      destruct (IH T F2 (upd rho y u) o') as (S1 & S2 & S3); auto. { rewrite upd_keep; auto. }
      split; auto. split; auto.
      intros z Vz. rewrite (S2 z Vz). unfold upd. destruct (String.eqb y z) eqn:Ey; auto.
      apply String.eqb_eq in Ey. subst z. symmetry. auto.
  Qed.

  Lemma shaped_effect lo hi b rho rho1 r :
    stmt_shape lo hi b -> exec b rho = Some (rho1, r) ->
    rho1 = rho \/ exists y v, target_of b = Some y /\ rho1 = upd rho y v /\ r = None.
  Proof.
    destruct b as [[y|]| | | | |[e|]]; simpl; try contradiction; intros _ E.
    - destruct (eval rho e); inversion E; subst. right. eauto.
    - destruct (eval rho e); inversion E; auto.
    - destruct (is_call "print" e); [destruct (all_some _)|destruct (eval rho e)]; inversion E; auto.
    - inversion E; auto.
  Qed.

  Lemma exec_keeps t lo hi l : Forall (fun b => target_of b <> Some t) l -> shape lo hi l ->
    forall rho rho1 r, exec_list l rho = Some (rho1, r) -> rho1 t = rho t.
  Proof.
    induction 1 as [|b l Hb Hl IH]; intros S rho rho1 r H.
    - inversion H; subst; auto.
    - inversion S; subst. rewrite exec_list_cons in H.
      destruct (exec b rho) as [[r2 w]|] eqn:Eb; try discriminate.
      assert (K : r2 t = rho t).
      { destruct (shaped_effect _ _ _ _ _ _ H2 Eb) as [->|(y & v & Ty & -> & _)]; auto. apply upd_keep. congruence. }
      destruct w; [inversion H; subst; exact K|]. rewrite (IH H3 _ _ _ H). exact K.
  Qed.

  (* a list wrapped under the test [t], against the simulation of the list itself: taken, it is
     simulated by the source; skipped, it changes nothing the source sees *)
  Lemma Wrap_sim t pos vc l wl f lo hi :
    Forall2 (Wrap t pos) l wl -> shape lo hi l -> Forall (fun b => target_of b <> Some t) l ->
    bsim visible f (exec_list l) ->
    forall rho rho' o', Inv rho' -> Ragree visible rho rho' -> rho' t = Some vc -> exec_list wl rho' = Some o' ->
      Inv (fst o') /\ (snd o' = None -> fst o' t = Some vc) /\
      if Bool.eqb (truthy vc) pos then exists o, f rho = Some o /\ Rout visible o o'
      else snd o' = None /\ Ragree visible rho (fst o').
  Proof.
    intros W Sh Fr B rho rho' o' J R X H. destruct (Bool.eqb (truthy vc) pos) eqn:T.
    - rewrite (Wrap_taken _ _ _ _ _ W T Fr _ X) in H.
      destruct (B _ _ _ J R H) as (o & Fo & Ro & Jo). split; auto. split; [|eauto].
      intros _. destruct o' as [r1 w1]. cbn [fst]. rewrite (exec_keeps t _ _ l Fr Sh _ _ _ H). exact X.
    - destruct (Wrap_skipped _ _ _ _ _ W T Fr _ _ X H) as (S1 & S2 & S3).
      split; [|split; auto].
      + intros a Pa. rewrite (S2 a (user_visible _ (prot_user _ Pa))). auto.
      + split; auto. intros z Vz. rewrite (S2 z Vz). auto.
  Qed.
End Rw.

Section RwMain.
  Variable ext : string -> list val -> option val.
  Notation eval := (eval ext).
  Notation exec := (exec ext).
  Notation exec_list := (exec_list ext).
  Notation iter_vals := (iter_vals ext).

  Definition rw_post (st : rstate) (l : list stmt) (st' : rstate) (f : env -> outcome) : Prop :=
    (uq st <= uq st')%N /\ shape (uq st) (uq st') l /\ forallb (gstmt anyn plen pbool pint []) l = true /\
    bsim visible f (exec_list l) /\ st_ok st'.

  Definition rw_spec (n : nat) : Prop :=
    forall s st l st', gstmt visible plen pbool pint [] s = true -> notup s = true -> st_ok st ->
                       rw_stmt n st s = Ok (l, st') -> rw_post st l st' (exec s).
  Definition rw_list_spec (n : nat) : Prop :=
    forall b st l st', forallb (gstmt visible plen pbool pint []) b = true -> forallb notup b = true -> st_ok st ->
                       rw_list_with (rw_stmt n) st b = Ok (l, st') -> rw_post st l st' (exec_list b).

  Lemma rw_post_nil st : st_ok st -> rw_post st [] st (fun rho => Some (rho, None)).
  Proof.
    intro S. split; [apply N.le_refl|]. split; [constructor|]. split; [reflexivity|]. split; auto.
    exact (bsim_nil visible).
  Qed.

  Lemma rw_post_st_ok st l st' f : rw_post st l st' f -> st_ok st'.
  Proof. intros (_ & _ & _ & _ & T). exact T. Qed.

  Lemma rw_post_seq st st1 st2 l1 l2 f1 f2 :
    rw_post st l1 st1 f1 -> rw_post st1 l2 st2 f2 -> rw_post st (l1 ++ l2) st2 (seq f1 f2).
  Proof.
    intros (U1 & S1 & G1 & B1 & T1) (U2 & S2 & G2 & B2 & T2). split; [lia|]. split; [|split; [|split]]; auto.
    - apply shape_app; [apply (shape_mono (uq st) (uq st1))|apply (shape_mono (uq st1) (uq st2))]; auto; lia.
    - now rewrite forallb_app, G1, G2.
    - eapply bsim_ext; [| |exact (bsim_seq visible _ _ _ _ B1 B2)]; auto.
      intro rho. unfold seq. now rewrite exec_list_app.
  Qed.

  Lemma rw_post_ext st l st' f f' :
    (forall rho rho', Inv rho' -> Ragree visible rho rho' -> f rho = f' rho) -> rw_post st l st' f -> rw_post st l st' f'.
  Proof.
    intros E (U & S & G & B & T). split; auto. split; auto. split; auto. split; auto.
    intros rho rho' o' J R H. rewrite <- (E rho rho' J R). eauto.
  Qed.

  Lemma rw_list_of_spec n : rw_spec n -> rw_list_spec n.
  Proof.
    intros IH b. induction b as [|s r IHb]; intros st l st' G N S H; simpl in H.
    - inversion H; subst. now apply rw_post_nil.
    - simpl in G, N. apply andb_true_iff in G as [Gs Gr]. apply andb_true_iff in N as [Ns Nr].
      inv_bind H as [l1 st1]. inv_bind H as [l2 st2]. inversion H; subst.
      pose proof (IH _ _ _ _ Gs Ns S Ha) as P1. pose proof (IHb _ _ _ Gr Nr (rw_post_st_ok _ _ _ _ P1) Ha0) as P2.
      exact (rw_post_seq _ _ _ _ _ _ _ P1 P2).
  Qed.

  Lemma range_args_vals args zs :
    all_some (map (fun a => match a with
                            | EConst c => match val_of_cst c with Some v => as_int v | None => None end
                            | _ => None end) args) = Some zs ->
    exists vs, (forall rho, all_some (map (eval rho) args) = Some vs) /\ all_some (map as_int vs) = Some zs.
  Proof.
    revert zs; induction args as [|a r IH]; intros zs H; simpl in H.
    - inversion H. exists []. auto.
    - destruct a; try discriminate. destruct (val_of_cst c) as [v|] eqn:Hv; try discriminate.
      destruct (as_int v) as [z|] eqn:Hz; try discriminate.
      destruct (all_some (map _ r)) as [zs'|] eqn:Hr; try discriminate. simpl in H. inversion H; subst.
      destruct (IH _ eq_refl) as (vs & E & A). exists (v :: vs). split.
      + intro rho. simpl. rewrite Hv, E. reflexivity.
      + simpl. rewrite Hz, A. reflexivity.
  Qed.

  Lemma ints_vals rho zl : all_some (map (eval rho) (map (fun z => EConst (CInt z)) zl)) = Some (map VInt zl).
  Proof. induction zl; simpl; auto. now rewrite IHzl. Qed.

  (* range( *args ) on folded constant arguments: the loop runs over the values of the constants *)
  Lemma range_consts_sound args l :
    forallb (gexp visible plen pbool pint []) args = true -> range_consts args = Ok l ->
    forallb valued_const l = true /\
    forall rho, iter_vals rho (ECall "range" args) = all_some (map (eval rho) l).
  Proof.
    (* the bound on the length is a large unary numeral: kept out of the hypotheses *)
    unfold range_consts. intro G. generalize 2000%nat. intros bound H. inv_bind H.
    pose proof (mapM_all _ _ _ (fold_exp_sound ext (fun _ => True) visible []) _ _ G Ha) as F.
    destruct (forallb is_constant a); try discriminate.
    destruct (all_some (map _ a)) as [zs|] eqn:Hz; try discriminate.
    destruct (range_of zs) as [zl|] eqn:Hr; try discriminate.
    destruct (bound <? _)%nat; inversion H; subst. split.
    - clear. induction zl; simpl; auto.
    - intro rho. destruct (range_args_vals _ _ Hz) as (vs & Ev & Az).
      rewrite iter_vals_range, <- (stands_args _ _ _ _ _ _ _ F I), Ev, Az, Hr, ints_vals. reflexivity.
  Qed.

  (* an element [r], with value [v], of the loop over the variable [x] whose body may index with
     [lvb]: it is substituted for [x] as it is ([rolls_with] substitutes [loop_val r]), reads no name
     the program may bind, is no call *)
  Definition elem_ok (x : string) (lvb : list string) (r : exp) (v : val) : Prop :=
    loop_val r = r /\ (forall lv, gexp visible plen pbool pint lv r = true) /\ (forall g, is_call g r = None) /\
    (forall rho y u, prot y = false -> eval (upd rho y u) r = eval rho r) /\
    (forall rho, Inv rho -> eval rho r = Some v) /\
    (existsb (String.eqb x) lvb = true -> valued_const r = true).

  Lemma elems_const x lvb l :
    forallb valued_const l = true ->
    exists vs, Forall2 (elem_ok x lvb) l vs /\ forall rho, all_some (map (eval rho) l) = Some vs.
  Proof.
    induction l as [|a r IH]; simpl; intro H. { exists []. auto. }
    apply andb_true_iff in H as [Ha Hr]. destruct (IH Hr) as (vs & F & E).
    destruct a; try discriminate Ha. destruct (valued_val _ Ha) as (v & Hv). exists (v :: vs). split.
    - constructor; auto. split; [reflexivity|]. split; [intro; exact Ha|]. split; [reflexivity|].
      split; [reflexivity|]. split; [intros; exact Hv|intros; exact Ha].
    - intro rho. simpl. now rewrite Hv, E.
  Qed.

  Lemma elems_access x y n :
    prot y = true -> visible y = true -> plen y = Some n ->
    exists vals, rho0 y = Some (VTup vals) /\ Forall2 (elem_ok x []) (map (access1 y) (List.seq 0 n)) vals.
  Proof.
    intros Py Vy Pl. destruct (typed_elems ext _ _ Pl) as (vals & Hv & _ & F). exists vals. split; auto.
    eapply Forall2_imp; [|exact F]. intros r v [[k ->] Ev].
    split; [reflexivity|]. split; [intro lv; simpl; now rewrite Vy|]. split; [reflexivity|].
    split; [|split; [exact Ev|discriminate]].
    intros rho z u Pz. simpl. unfold upd. destruct (String.eqb z y) eqn:E; auto.
    apply String.eqb_eq in E. subst. congruence.
  Qed.

  Lemma Inv_agree rho rho' : Inv rho' -> Ragree visible rho rho' -> Inv rho.
  Proof. intros J R a Pa. rewrite (R a (user_visible _ (prot_user _ Pa))). auto. Qed.

  Lemma for_iter_sound st it x b pre elems st0 :
    st_ok st -> giter visible plen pbool pint [] it = true ->
    forallb (gstmt visible plen pbool pint (body_lv plen x [] it)) b = true ->
    for_iter st it b = Ok (pre, elems, st0) ->
    pre = [] /\ st0 = st /\
    exists vs, Forall2 (elem_ok x (body_lv plen x [] it)) elems vs /\
               (forall rho rho', Inv rho' -> Ragree visible rho rho' -> iter_vals rho it = Some vs).
  Proof.
    intros S G Gb H. unfold for_iter in H. unfold giter in G.
    destruct (is_call "range" it) as [args|] eqn:Ci.
    - apply is_call_some in Ci. subst it. inv_bind H. inv_bind H. inversion H; subst. clear H.
      split; auto. split; auto.
      pose proof (mapM_all _ _ _ (fun e => rw_exp_sound ext _ e S) _ _ G Ha) as F.
      destruct (range_consts_sound _ _ (stands_guards _ _ _ _ _ _ F) Ha0) as (Vl & El).
      destruct (elems_const x (body_lv plen x [] (ECall "range" args)) _ Vl) as (vs & Fe & Ev).
      exists vs. split; auto.
      intros rho rho' J R. rewrite <- (Ev rho), <- El, !iter_vals_range.
      now rewrite (stands_args _ _ _ _ _ _ _ F (Inv_agree _ _ J R)).
    - inv_bind H. apply orb_true_iff in G as [G|G].
      + (* a literal tuple / list of constants *)
        assert (K : exists l, (it = ETuple l \/ it = EList l) /\ forallb valued_const l = true).
        { destruct it; simpl in G; try discriminate; eauto. }
        destruct K as (l & Eit & Vl).
        assert (Ea : a = ETuple l).
        { destruct Eit; subst it; cbn [rw_exp] in Ha; rewrite (mapM_const_list (rw_exp st) _ (fun _ => eq_refl) Vl) in Ha; now inversion Ha. }
        subst a. simpl in H. inversion H; subst. split; auto. split; auto.
        destruct (elems_const x (body_lv plen x [] it) _ Vl) as (vs & Fe & Ev). exists vs. split; auto.
        intros rho rho' _ _. rewrite iter_vals_other by auto.
        replace (eval rho it) with (option_map VTup (all_some (map (eval rho) elems)))
          by (destruct Eit; subst it; reflexivity).
        now rewrite Ev.
      + (* a typed tuple argument, which the body does not bind *)
        destruct it; simpl in G; try discriminate. rename x0 into y.
        destruct (prot y) eqn:Py; try discriminate.
        destruct (visible_inv _ G) as (Dy & _). cbn [rw_exp] in Ha. rewrite Dy in Ha. inversion Ha; subst a. clear Ha.
        rewrite (glist_assigns _ _ _ _ Py Gb) in H. inv_bind H. inversion H; subst. clear H. split; auto. split; auto.
        destruct (plen y) as [n|] eqn:Ply; [|unfold M_A2A.prot in Py; rewrite Ply in Py; discriminate].
        rewrite (unroll_typed _ _ _ S Ply) in Ha. inversion Ha; subst elems.
        destruct (elems_access x y n Py G Ply) as (vals & Hv & Fe). exists vals. split.
        * unfold body_lv. simpl. rewrite Py. exact Fe.
        * intros rho rho' J R. rewrite iter_vals_other by reflexivity. simpl. now rewrite (R y G), (J y Py), Hv.
  Qed.

  Lemma rolls_sound n (IH : rw_spec n) x lvb b :
    visible x = true -> prot x = false ->
    (forall i, String.eqb i x = false -> existsb (String.eqb i) lvb = false) ->
    forallb notup b = true -> forallb (gstmt visible plen pbool pint lvb) b = true ->
    forall rs vs st l st',
      Forall2 (elem_ok x lvb) rs vs -> st_ok st ->
      rolls_with (rw_stmt n) x b rs st = Ok (l, st') ->
      rw_post st l st' (loop_with (exec_list b) x vs).
  Proof.
    intros Vx Px Hlv Nb Gb. induction rs as [|r rs IHr]; intros vs st l st' F S H;
      inversion F as [|? w ? vs' Er F']; subst.
    - simpl in H. inversion H; subst. now apply rw_post_nil.
    - destruct Er as (Lr & Gr & Nc & Stab & Ev & Hc).
      cbn [rolls_with] in H. rewrite Lr in H.
      inv_bind H as [l0 st2]. inv_bind H. inv_bind H as [l1 st3].
      inv_bind H as [l2 st4]. inversion H; subst.
      assert (G0 : gstmt visible plen pbool pint [] (SAssign (TName x) r) = true).
      { cbn [gstmt]. unfold okt. now rewrite Vx, Px, (Gr []). }
      assert (S1 : st_ok (set_constant st x r)) by (apply st_ok_set_constant; auto).
      pose proof (IH _ _ _ _ G0 eq_refl S1 Ha) as P0. unfold rw_post in P0. rewrite uq_set_constant in P0.
      (* the body with [r] for [x]: guarded outside the loop, and the body where [x] has the value of [r] *)
      assert (A : lv_after x r lvb []) by (split; [intros i Ei; simpl; now rewrite (Hlv i Ei)|exact Hc]).
      destruct (subst_body_sound ext visible x r Px Gr Nc Stab _ false _ _ _ A Nb Gb Ha0) as ((Gb' & Nb') & Eb).
      pose proof (rw_list_of_spec n IH _ _ _ _ Gb' Nb' (rw_post_st_ok _ _ _ _ P0) Ha1) as P1.
      pose proof (IHr _ _ _ _ F' (rw_post_st_ok _ _ _ _ P1) Ha2) as P2.
      eapply rw_post_ext; [|exact (rw_post_seq st _ _ _ _ _ _ P0 (rw_post_seq _ _ _ _ _ _ _ P1 P2))].
      intros rho rho' J R. unfold seq. cbn [M_A2A.exec loop_with].
      assert (Evr : eval rho r = Some w).
      { rewrite (eval_agree ext visible [] r rho rho' (Gr []) R). auto. }
      rewrite Evr. destruct (Eb (upd rho x w)) as (E & _); [|now rewrite E].
      unfold St. rewrite Stab, Evr by exact Px. unfold upd. now rewrite String.eqb_refl.
  Qed.

  Lemma rw_post_one st s f :
    stmt_shape (uq st) (uq st) s -> gstmt anyn plen pbool pint [] s = true -> bsim visible f (exec s) -> st_ok st ->
    rw_post st [s] st f.
  Proof.
    intros Sh G B S. split; [apply N.le_refl|]. split; [constructor; auto; constructor|].
    split; [simpl; now rewrite G|]. split; auto. now apply bsim_single.
  Qed.

  (* visit_If on the rewritten branches: the test goes to a fresh `_iftargN`, every statement of the
     branches is wrapped under it *)
  Lemma rw_if_post st st1 st2 c c' b o b' o' bl ol :
    rw_post st b' st1 (exec_list b) -> rw_post st1 o' st2 (exec_list o) ->
    gexp visible plen pbool pint [] c = true -> stands ext Inv visible [] c c' ->
    Forall2 (Wrap (iftarg_name (uq st2 + 1)) true) b' bl -> Forall2 (Wrap (iftarg_name (uq st2 + 1)) false) o' ol ->
    rw_post st (SAssign (TName (iftarg_name (uq st2 + 1))) c' :: bl ++ ol) (mkst (tys st2) (cns st2) (uq st2 + 1))
            (exec (SIf c b o)).
  Proof.
    intros (U1 & S1 & A1 & B1 & T1) (U2 & S2 & A2 & B2 & T2) Gc (Ec & Gc') Wb We.
    set (u := (uq st2 + 1)%N) in *. set (t := iftarg_name u) in *.
    assert (Fb : Forall (fun s => target_of s <> Some t) b') by (apply (shape_fresh _ _ _ _ S1); unfold u; lia).
    assert (Fo : Forall (fun s => target_of s <> Some t) o') by (apply (shape_fresh _ _ _ _ S2); unfold u; lia).
    unfold rw_post. cbn [uq]. split; [unfold u; lia|]. split; [|split; [|split]].
    - constructor.
      + split; [apply iftarg_not_prot|]. intros _. exists u. split; auto. unfold u; lia.
      + apply shape_app; [apply (Wrap_shape t true _ _ _ _ Wb), (shape_mono (uq st) (uq st1))
                         |apply (Wrap_shape t false _ _ _ _ We), (shape_mono (uq st1) (uq st2))]; auto; unfold u; lia.
    - cbn [forallb]. rewrite forallb_app, (Wrap_guard t _ _ _ Wb A1), (Wrap_guard t _ _ _ We A2).
      unfold t. cbn [gstmt]. rewrite (gexp_anyn _ _ _ Gc').
      unfold okt, anyn. rewrite (iftarg_not_prot u). reflexivity.
    - intros rho rho' out' J R H.
      rewrite exec_list_cons in H. cbn [M_A2A.exec] in H. rewrite (eval_back ext visible [] c c' rho rho' Gc Ec J R) in H.
      rewrite exec_if. destruct (eval rho c) as [vc|]; try discriminate.
      set (rho1 := upd rho' t vc) in *.
      assert (X1 : rho1 t = Some vc) by (unfold rho1, upd; now rewrite String.eqb_refl).
      assert (R1 : Ragree visible rho rho1).
      { apply Ragree_upd_r; auto. apply iftarg_invisible. }
      assert (J1 : Inv rho1) by (apply Inv_upd; auto; apply iftarg_not_prot).
      (* the wrapped body, then the wrapped orelse: one is taken, the other skipped *)
      rewrite exec_list_app in H. destruct (exec_list bl rho1) as [[r2 w2]|] eqn:Eb; try discriminate.
      destruct (Wrap_sim ext t true vc _ _ _ _ _ Wb S1 Fb B1 rho rho1 _ J1 R1 X1 Eb) as (J2 & X2 & K1).
      cbn [fst snd] in J2, X2, K1. destruct (truthy vc) eqn:T; cbn [Bool.eqb] in K1.
      + destruct K1 as (q & Fq & Rq). destruct w2 as [v|]; [inversion H; subst; eauto|].
        destruct (Wrap_sim ext t false vc _ _ _ _ _ We S2 Fo B2 (fst q) r2 out' J2 (proj1 Rq) (X2 eq_refl) H)
          as (J3 & _ & K2).
        rewrite T in K2. destruct K2 as (N3 & R3).
        exists q. split; auto. split; auto. split; [exact R3|rewrite N3; exact (proj2 Rq)].
      + destruct K1 as (N2 & R2). cbn [fst snd] in N2, R2. subst w2.
        destruct (Wrap_sim ext t false vc _ _ _ _ _ We S2 Fo B2 rho r2 out' J2 R2 (X2 eq_refl) H) as (J3 & _ & K2).
        rewrite T in K2. destruct K2 as (q & Fq & Rq). eauto.
    - apply (st_ok_tys st2); auto.
  Qed.

  Lemma rw_assign_sound st x e l st' :
    st_ok st -> visible x = true -> prot x = false -> gexp visible plen pbool pint [] e = true ->
    rw_assign st x e = Ok (l, st') -> rw_post st l st' (exec (SAssign (TName x) e)).
  Proof.
    intros S Vx Px G H. unfold rw_assign in H. inv_bind H as [st1 e1]. inv_bind H.
    destruct (assign_env_sound ext _ _ _ _ _ S Px G Ha) as ((U & Sst) & S1).
    pose proof (stands_trans _ _ _ _ _ _ _ S1 (rw_exp_sound ext st1 _ Sst _ (proj2 S1) Ha0)) as Sv.
    destruct (is_seq_lit e && negb (exp_eqb a e1)); try discriminate.
    destruct (name_in x e1 && in_env st x && negb (is_constant e)); inversion H; subst;
      (split; [rewrite U; apply N.le_refl|]).
    - destruct (tmp_assign_sound ext (uq st) (uq st') x e a Vx Px G Sv) as (A & B & C). auto.
    - destruct (assign_sound ext (uq st) (uq st') x e a Vx Px G Sv) as (A & B & C). auto.
  Qed.

  Lemma rw_stmt_sound n : rw_spec n.
  Proof.
    induction n as [|n IHn]; intros s st l st'; [discriminate|].
    pose proof (rw_list_of_spec n IHn) as IHl.
    destruct s as [[x|tl] e|x op e|c b o|x it b fo|e|[e|]]; cbn [rw_stmt gstmt notup]; intros G N S H.
    - apply andb_true_iff in G as [Gx Ge]. destruct (okt_inv _ _ Gx) as (Vx & Px).
      exact (rw_assign_sound _ _ _ _ _ S Vx Px Ge H).
    - discriminate.
    - apply andb3_true in G as (Gx & Gop & Ge).
      destruct (okt_inv _ _ Gx) as (Vx & Px).
      inv_bind H. inversion H; subst.
      assert (G1 : gexp visible plen pbool pint [] (EBinOp op (EName x) e) = true) by (simpl; now rewrite Gop, Vx, Ge).
      destruct (tmp_assign_sound ext (uq st') (uq st') x _ a Vx Px G1 (rw_exp_sound ext st' _ S _ G1 Ha)) as (A & B & C).
      split; [apply N.le_refl|]. split; [|split; [|split]]; auto.
      eapply bsim_ext; [| |exact C]; auto. intro rho. symmetry. apply aug_as_assign.
    - apply andb3_true in G as (Gc & Gb & Go).
      apply andb_true_iff in N as [Nb No].
      inv_bind H as [b' st1]. inv_bind H as [o' st2].
      cbv zeta in H. inv_bind H. inv_bind H. inv_bind H. inversion H; subst. clear H.
      pose proof (IHl _ _ _ _ Gb Nb S Ha) as P1. pose proof (IHl _ _ _ _ Go No (rw_post_st_ok _ _ _ _ P1) Ha0) as P2.
      assert (S3 : st_ok (mkst (tys st2) (cns st2) (uq st2 + 1)%N)) by (apply (st_ok_tys st2), (rw_post_st_ok _ _ _ _ P2); auto).
      exact (rw_if_post _ _ _ _ _ _ _ _ _ _ _ P1 P2 Gc (rw_exp_sound ext _ _ S3 _ Gc Ha1)
                        (wrap_body_Wrap _ _ _ _ Ha2) (wrap_else_Wrap _ _ _ _ Ha3)).
    - apply andb5_true in G as (Gx & Gi & Gn & Gb & Go).
      destruct (okt_inv _ _ Gx) as (Vx & Px).
      apply andb_true_iff in N as [Nb No].
      inv_bind H as [[pre elems] st0]. inv_bind H as [l1 st1].
      inv_bind H as [o' st2]. inversion H; subst. clear H.
      destruct (for_iter_sound _ _ x _ _ _ _ S Gi Gb Ha) as (-> & -> & vs & Fe & Ev).
      assert (Hlv : forall i, String.eqb i x = false -> existsb (String.eqb i) (body_lv plen x [] it) = false).
      { unfold body_lv. destruct (name_iter plen it); simpl; auto. intros i ->. reflexivity. }
      pose proof (rolls_sound n IHn x _ b Vx Px Hlv Nb Gb elems vs _ _ _ Fe S Ha0) as P1.
      pose proof (IHl _ _ _ _ Go No (rw_post_st_ok _ _ _ _ P1) Ha1) as P2.
      eapply rw_post_ext; [|exact (rw_post_seq _ _ _ _ _ _ _ P1 P2)].
      intros rho rho' J R. rewrite exec_for, (Ev rho rho' J R). reflexivity.
    - inv_bind H. inversion H; subst. destruct (rw_exp_sound ext st' _ S _ G Ha) as (E & G').
      apply rw_post_one; auto.
      + exact I.
      + exact (gexp_anyn _ _ _ G').
      + now apply (bsim_return ext visible []).
    - rewrite (gexp_not_print _ _ _ G) in H.
      inv_bind H. inversion H; subst. destruct (rw_exp_sound ext st' _ S _ G Ha) as (E & G').
      apply rw_post_one; auto.
      + exact I.
      + exact (gexp_anyn _ _ _ G').
      + now apply (bsim_expr ext visible []).
    - inversion H; subst. apply rw_post_one; auto; [exact I|apply bsim_skip].
  Qed.

  Lemma rw_list_sound b st l st' :
    forallb (gstmt visible plen pbool pint []) b = true -> forallb notup b = true -> st_ok st ->
    rw_list rw_fuel st b = Ok (l, st') -> rw_post st l st' (exec_list b).
  Proof. apply (rw_list_of_spec rw_fuel (rw_stmt_sound rw_fuel)). Qed.
End RwMain.

End Typed.

Lemma rw_assign_normal st x e l st' : rw_assign st x e = Ok (l, st') -> forallb normal_stmt l = true.
Proof.
  unfold rw_assign. intro H. inv_bind H as [st1 e1]. inv_bind H.
  destruct (_ && _); try discriminate. destruct (_ && _); inversion H; subst; reflexivity.
Qed.

Lemma Wrap_normal t pos l wl : Forall2 (Wrap t pos) l wl -> forallb normal_stmt wl = true.
Proof. induction 1 as [|b wb l wl (y & e & -> & [[-> _]|(o & -> & _)]) _ IH]; simpl; auto. Qed.

Lemma rw_list_normal_of (rw : rstate -> stmt -> res (list stmt * rstate)) :
  (forall s st l st', rw st s = Ok (l, st') -> forallb normal_stmt l = true) ->
  forall b st l st', rw_list_with rw st b = Ok (l, st') -> forallb normal_stmt l = true.
Proof.
  intros IH b. induction b as [|s r IHb]; intros st l st' H; simpl in H.
  - inversion H; auto.
  - inv_bind H as [l1 st1]. inv_bind H as [l2 st2]. inversion H; subst.
    rewrite forallb_app, (IH _ _ _ _ Ha), (IHb _ _ _ Ha0). reflexivity.
Qed.

Lemma rolls_normal_of (rw : rstate -> stmt -> res (list stmt * rstate)) x b :
  (forall s st l st', rw st s = Ok (l, st') -> forallb normal_stmt l = true) ->
  forall elems st l st', rolls_with rw x b elems st = Ok (l, st') -> forallb normal_stmt l = true.
Proof.
  intros IH elems. induction elems as [|i r IHr]; intros st l st' H; simpl in H.
  - inversion H; auto.
  - inv_bind H as [l0 st2]. inv_bind H. inv_bind H as [l1 st3].
    inv_bind H as [l2 st4]. inversion H; subst.
    rewrite !forallb_app, (IH _ _ _ _ Ha), (rw_list_normal_of rw IH _ _ _ _ Ha1), (IHr _ _ _ Ha2). reflexivity.
Qed.

Lemma for_iter_normal st it b pre elems st0 :
  for_iter st it b = Ok (pre, elems, st0) -> forallb normal_stmt pre = true.
Proof.
  unfold for_iter. intro H. destruct (is_call "range" it).
  - inv_bind H. inv_bind H. inversion H; subst. reflexivity.
  - inv_bind H.
    (* nothing is emitted, but for an iterated name the body re-assigns: an assignment of its copy *)
    assert (K : (l <- unroll_arg st a ;; Ok ([], l, st)) = Ok (pre, elems, st0) -> forallb normal_stmt pre = true).
    { intro H'. inv_bind H'. now inversion H'. }
    destruct a; try exact (K H).
    destruct (existsb (assigns_name x) b); [|exact (K H)].
    cbv zeta in H. inv_bind H as [l0 st1]. inv_bind H. inversion H; subst.
    apply (rw_assign_normal _ _ _ _ _ Ha0).
Qed.

Lemma rw_stmt_normal n : forall s st l st', rw_stmt n st s = Ok (l, st') -> forallb normal_stmt l = true.
Proof.
  induction n as [|n IHn]; intros s st l st'; [discriminate|].
  destruct s as [[x|tl] e|x op e|c b o|x it b fo|e|[e|]]; cbn [rw_stmt]; intro H.
  - apply (rw_assign_normal _ _ _ _ _ H).
  - discriminate.
  - inv_bind H. inversion H; subst. reflexivity.
  - inv_bind H as [b' st1]. inv_bind H as [o' st2].
    cbv zeta in H. inv_bind H. inv_bind H. inv_bind H. inversion H; subst.
    simpl. now rewrite forallb_app, (Wrap_normal _ _ _ _ (wrap_body_Wrap _ _ _ _ Ha2)), (Wrap_normal _ _ _ _ (wrap_else_Wrap _ _ _ _ Ha3)).
  - inv_bind H as [[pre elems] st0]. inv_bind H as [l1 st1].
    inv_bind H as [o' st2]. inversion H; subst.
    rewrite !forallb_app, (for_iter_normal _ _ _ _ _ _ Ha), (rolls_normal_of _ _ _ IHn _ _ _ _ Ha0),
      (rw_list_normal_of _ IHn _ _ _ _ Ha1). reflexivity.
  - inv_bind H. inversion H; subst. reflexivity.
  - destruct (is_call "print" e).
    + inv_bind H. inversion H; subst. reflexivity.
    + inv_bind H. inversion H; subst. reflexivity.
  - inversion H; subst. reflexivity.
Qed.

Lemma fold_normal l : forall l', forallb normal_stmt l = true -> fold_list l = Ok l' -> forallb normal_stmt l' = true.
Proof.
  unfold fold_list. induction l as [|s r IH]; intros l' N H; simpl in H.
  - inversion H; auto.
  - simpl in N. apply andb_true_iff in N as [Ns Nr].
    inv_bind H. inv_bind H. inversion H; subst. rewrite forallb_app, (IH _ Nr Ha0), andb_true_r.
    destruct s as [[y|]| | | | |[e|]]; simpl in Ns; try discriminate; cbn [fold_stmt fold_target] in Ha.
    + inv_bind Ha. inv_bind Ha. inversion Ha; subst. inversion Ha1; subst. reflexivity.
    + inv_bind Ha. inversion Ha; subst. reflexivity.
    + inv_bind Ha. inversion Ha; subst. reflexivity.
    + inversion Ha; subst. reflexivity.
Qed.

Lemma Ragree_refl P rho : Ragree P rho rho.
Proof. intros x _. reflexivity. Qed.

Lemma plen_of_inv f a n :
  plen_of f a = Some n ->
  user_name a = true /\
  exists l, assoc (tys (init_state (f_args f))) a = Some (TyNode (ESubscript (EName "Tuple") (ETuple l))) /\
            List.length l = n.
Proof.
  unfold plen_of. destruct (assoc (tys (init_state (f_args f))) a) as [[e|]|]; try discriminate.
  destruct e; try discriminate. destruct e1; try discriminate. destruct e2; try discriminate.
  destruct (String.eqb x "Tuple") eqn:E; [|discriminate]. destruct (user_name a); [|discriminate].
  simpl. intro H. inversion H; subst. apply String.eqb_eq in E. subst. eauto.
Qed.

Lemma prot_of_user f a : prot (plen_of f) a = true -> user_name a = true.
Proof.
  unfold prot. destruct (plen_of f a) as [n|] eqn:E; try discriminate. intros _.
  apply (plen_of_inv _ _ _ E).
Qed.

Lemma a2a_ok f b' :
  a2a f = Ok b' ->
  fun_reserved f = false /\
  exists b1 b2 b3 st3, fold_list (f_body f) = Ok b1 /\ multi_list b1 = Ok b2 /\
                       rw_list rw_fuel (init_state (f_args f)) b2 = Ok (b3, st3) /\ fold_list b3 = Ok b'.
Proof.
  unfold a2a. destruct (fun_reserved f); [discriminate|]. intro H. inv_bind H. inv_bind H. inv_bind H.
  unfold rw_fun in Ha1. inv_bind Ha1. inv_bind Ha1 as [b3 st3]. inv_bind Ha1. inversion Ha1; subst.
  split; [reflexivity|]. exists a, a0, a1, st3. auto.
Qed.

(* the four passes composed: the source program simulates the normalised one backwards, from
   every environment that agrees on the user names with one in which the typed tuple arguments
   have the value [rho0] gives them *)
Theorem a2a_bsim ext f b' rho0 :
  a2a_guard f = true -> a2a f = Ok b' -> conforms f rho0 ->
  bsim (plen_of f) rho0 user_name (exec_list ext (f_body f)) (exec_list ext b').
Proof.
  intros G H C. unfold a2a_guard in G. destruct (a2a_ok _ _ H) as (_ & b1 & b2 & b3 & st3 & H1 & H2 & H3 & H4).
  destruct C as (C & Cb & Ci).
  set (plen := plen_of f) in *. set (pbool := pbool_of f) in *. set (pint := pint_of f) in *.
  destruct (fold_list_sound plen pbool pint ext user_name [] _ _ G H1) as (E1 & G1).
  destruct (multi_list_sound plen (prot_of_user f) rho0 C pbool pint ext [] _ _ G1 H2) as (G2 & B2).
  pose proof (multi_list_notup _ _ H2) as N2.
  assert (S0 : st_ok plen (init_state (f_args f))).
  { intros z n Pa. apply (plen_of_inv _ _ _ Pa). }
  destruct (rw_list_sound plen (prot_of_user f) rho0 C pbool Cb pint Ci ext _ _ _ _ G2 N2 S0 H3) as (_ & _ & G3 & B3 & _).
  destruct (fold_list_sound plen pbool pint ext anyn [] _ _ G3 H4) as (E4 & _).
  (* the two folds change no outcome; the rewriter's output and the multi-target pass's run from the same environment *)
  intros rho rho' o' J R X. rewrite E4 in X.
  destruct (B3 _ _ _ J (Ragree_refl visible rho') X) as (o2 & X2 & (R3 & V3) & J3).
  destruct (B2 _ _ _ J R X2) as (o1 & X1 & (R2 & V2) & _).
  exists o1. rewrite <- E1. split; [exact X1|]. split; [|exact J3]. split; [|congruence].
  intros z Uz. rewrite (R2 z Uz). apply R3, user_visible, Uz.
Qed.

Theorem a2a_backward : forall ext f b',
  a2a_guard f = true -> a2a f = Ok b' ->
  forall rho, conforms f rho ->
  forall v, run ext b' rho = Some v -> run ext (f_body f) rho = Some v.
Proof.
  intros ext f b' G H rho C v R. unfold run in *.
  destruct (exec_list ext b' rho) as [[r' [v'|]]|] eqn:X; try discriminate. inversion R; subst v'.
  destruct (a2a_bsim ext f b' rho G H C rho rho _ (fun _ _ => eq_refl) (Ragree_refl _ rho) X) as ([r w] & X1 & (_ & Ew) & _).
  simpl in Ew. subst w. now rewrite X1.
Qed.

Definition no_ext : string -> list val -> option val := fun _ _ => None.
Definition ann_bool : option exp := Some (EName "bool").
Definition ann_tuple (l : list exp) : option exp := Some (ESubscript (EName "Tuple") (ETuple l)).
Definition ann_qint2 : exp := ESubscript (EName "Qint") (EConst (CInt 2)).
Definition ci (z : Z) : exp := EConst (CInt z).

(* regression programs for the repairs cc7fed2 .. d025bfb of /repo: each exercises one defect
   repaired there, and is preserved (the Examples `repaired_...` of Prop_C01_a2a.v) *)
(* def f(t: Tuple[Tuple[bool, bool], bool]) -> bool:  t, a = t;  return a *)
Definition wit_multi : fundef :=
  mkfun [("t", ann_tuple [ESubscript (EName "Tuple") (ETuple [EName "bool"; EName "bool"]); EName "bool"])] ann_bool
        [SAssign (TTuple [EName "t"; EName "a"]) (EName "t"); SReturn (EName "a")].
Definition wit_multi_env : env := env_of [("t", VTup [VTup [VBool true; VBool false]; VBool true])].

(* def f(a: bool, b: bool, u: Tuple[Qint[2], bool]) -> bool:  t = (a, b);  a = not a;  return t[u[0]] *)
Definition wit_alias : fundef :=
  mkfun [("a", ann_bool); ("b", ann_bool); ("u", ann_tuple [ann_qint2; EName "bool"])] ann_bool
        [SAssign (TName "t") (ETuple [EName "a"; EName "b"]);
         SAssign (TName "a") (EUnOp Not (EName "a"));
         SReturn (ESubscript (EName "t") (ESubscript (EName "u") (ci 0)))].
Definition wit_alias_env : env := env_of [("a", VBool true); ("b", VBool false); ("u", VTup [VInt 0; VBool true])].

(* def f(a, b, c: bool, u: ...) -> bool:  t = (a, b);  if c: t = (b, a);  return t[u[0]] *)
Definition wit_flow : fundef :=
  mkfun [("a", ann_bool); ("b", ann_bool); ("c", ann_bool); ("u", ann_tuple [ann_qint2; EName "bool"])] ann_bool
        [SAssign (TName "t") (ETuple [EName "a"; EName "b"]);
         SIf (EName "c") [SAssign (TName "t") (ETuple [EName "b"; EName "a"])] [];
         SReturn (ESubscript (EName "t") (ESubscript (EName "u") (ci 0)))].
Definition wit_flow_env : env :=
  env_of [("a", VBool true); ("b", VBool false); ("c", VBool false); ("u", VTup [VInt 0; VBool true])].

(* def f(m: Qmatrix[bool, 2, 3]) -> bool:  r = False;  for x in m[0]: r = r ^ x;  return r *)
Definition ann_row3 : exp := ESubscript (EName "Tuple") (ETuple [EName "bool"; EName "bool"; EName "bool"]).
Definition wit_matrix : fundef :=
  mkfun [("m", ann_tuple [ann_row3; ann_row3])] ann_bool
        [SAssign (TName "r") (EConst (CBool false));
         SFor "x" (ESubscript (EName "m") (ci 0)) [SAssign (TName "r") (EBinOp BitXor (EName "r") (EName "x"))] [];
         SReturn (EName "r")].
Definition wit_matrix_env : env :=
  env_of [("m", VTup [VTup [VBool false; VBool false; VBool true]; VTup [VBool false; VBool false; VBool false]])].

(* def f(a: Tuple[bool, bool]) -> bool:  s = False;  for x in a: a = (s, x); s = s ^ x;  return s *)
Definition wit_loop : fundef :=
  mkfun [("a", ann_tuple [EName "bool"; EName "bool"])] ann_bool
        [SAssign (TName "s") (EConst (CBool false));
         SFor "x" (EName "a") [SAssign (TName "a") (ETuple [EName "s"; EName "x"]);
                               SAssign (TName "s") (EBinOp BitXor (EName "s") (EName "x"))] [];
         SReturn (EName "s")].
Definition wit_loop_env : env := env_of [("a", VTup [VBool true; VBool true])].

(* what the Examples say of a witness: the normalised program and the source both return [v] from
   [rho]; they return different values *)
Definition agree (f : fundef) (rho : env) (v : val) : Prop :=
  exists b', a2a f = Ok b' /\ run no_ext b' rho = Some v /\ run no_ext (f_body f) rho = Some v.
Definition differ (f : fundef) (rho : env) : Prop :=
  exists b' v v', a2a f = Ok b' /\ run no_ext b' rho = Some v /\ run no_ext (f_body f) rho = Some v' /\
                  val_eqb v v' = false.

(* regression programs for the repairs cbb039f, 31c53a1, e979369 of /repo *)
(* def f(c: bool, u: Tuple[Qint[2], bool]) -> bool:
       t = (True, False);  if c: t = (False, True);  return t[u[0]]
   a named tuple is always read through the name *)
Definition wit_constflow : fundef :=
  mkfun [("c", ann_bool); ("u", ann_tuple [ann_qint2; EName "bool"])] ann_bool
        [SAssign (TName "t") (ETuple [EConst (CBool true); EConst (CBool false)]);
         SIf (EName "c") [SAssign (TName "t") (ETuple [EConst (CBool false); EConst (CBool true)])] [];
         SReturn (ESubscript (EName "t") (ESubscript (EName "u") (ci 0)))].
Definition wit_constflow_env : env := env_of [("c", VBool false); ("u", VTup [VInt 0; VBool true])].

(* def f(a: bool, b: bool) -> bool:  _temptup = (a, b);  a, b = b, a;  return _temptup[0] *)
Definition wit_temptup : fundef :=
  mkfun [("a", ann_bool); ("b", ann_bool)] ann_bool
        [SAssign (TName "_temptup") (ETuple [EName "a"; EName "b"]);
         SAssign (TTuple [EName "a"; EName "b"]) (ETuple [EName "b"; EName "a"]);
         SReturn (ESubscript (EName "_temptup") (ci 0))].

(* def f(a, b, c: bool) -> bool:  _iftarg2 = c;  if a: b = not b;  return _iftarg2 *)
Definition wit_iftarg : fundef :=
  mkfun [("a", ann_bool); ("b", ann_bool); ("c", ann_bool)] ann_bool
        [SAssign (TName "_iftarg2") (EName "c");
         SIf (EName "a") [SAssign (TName "b") (EUnOp Not (EName "b"))] [];
         SReturn (EName "_iftarg2")].

(* the unguarded statement is false of the model over UNTYPED values:
   def f(a: Qlist[Qint[2], 2]) -> bool:  return all(a)      with a = (2, 3)
   all(a) becomes a[0] and a[1]: 3, where Python's all gives True.  The translator REJECTS this
   program (the operands of `and` must be bool): it witnesses that the builtin expansions need
   typed operands, not a defect of an accepted program *)
Definition wit_all : fundef :=
  mkfun [("a", ann_tuple [ann_qint2; ann_qint2])] ann_bool [SReturn (ECall "all" [EName "a"])].
Definition wit_all_env : env := env_of [("a", VTup [VInt 2; VInt 3])].

Lemma assoc_in {A} (l : list (string * A)) x v : assoc l x = Some v -> List.In x (map fst l).
Proof.
  induction l as [|[y a] r IH]; simpl; try discriminate.
  destruct (String.eqb y x) eqn:E; auto. apply String.eqb_eq in E. auto.
Qed.

(* an argument annotated Tuple[...] whose elements all pass [q] is a typed tuple argument *)
Lemma typed_plen (q : exp -> bool) f a :
  match assoc (tys (init_state (f_args f))) a with
  | Some (TyNode (ESubscript (EName tn) (ETuple l))) => String.eqb tn "Tuple" && user_name a && forallb q l
  | _ => false
  end = true -> exists n, plen_of f a = Some n.
Proof.
  unfold plen_of. destruct (assoc (tys (init_state (f_args f))) a) as [[e|]|]; try discriminate.
  destruct e; try discriminate. destruct e1; try discriminate. destruct e2; try discriminate.
  intro H. apply andb_true_iff in H as [H _]. rewrite H. eauto.
Qed.

Theorem conforms_check f rho : conforms_b f rho = true -> conforms f rho.
Proof.
  unfold conforms_b, conforms. intro H.
  assert (K : forall a n, plen_of f a = Some n ->
              exists vs, rho a = Some (VTup vs) /\ List.length vs = n /\
                         (pbool_of f a = true -> forallb is_vbool vs = true) /\
                         (pint_of f a = true -> forallb is_vint vs = true)).
  { intros a n Pa. destruct (plen_of_inv _ _ _ Pa) as (_ & l & Hl & _).
    apply assoc_in in Hl. unfold init_state in Hl. simpl in Hl.
    rewrite map_rev, map_map in Hl. simpl in Hl. apply in_rev in Hl.
    rewrite forallb_forall in H. specialize (H a Hl). rewrite Pa in H.
    destruct (rho a) as [[| |vs]|]; try discriminate. apply andb3_true in H as (H1 & H2 & H3).
    apply Nat.eqb_eq in H1. exists vs. split; auto. split; auto. split.
    - intro Pb. rewrite Pb in H2. exact H2.
    - intro Pi. rewrite Pi in H3. exact H3. }
  split; [|split].
  - intros a n Pa. destruct (K a n Pa) as (vs & E & L & _). eauto.
  - intros a Pb. destruct (typed_plen is_bool_ann _ _ Pb) as (n & Pa). destruct (K a n Pa) as (vs & E & _ & B & _). eauto.
  - intros a Pi. destruct (typed_plen is_int_ann _ _ Pi) as (n & Pa). destruct (K a n Pa) as (vs & E & _ & _ & B). eauto.
Qed.
