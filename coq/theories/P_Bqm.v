(* P_Bqm.v — about the model of qlasskit/bqm.py (M_Bqm.v).  tr_ok e p: on 0/1 values the
   polynomial p is the indicator of the expression e, and has the symbols of e.  visit_ok proves
   it of every expression visit accepts; fold_pair_ok does And and Xor at once. *)
From Coq Require Import List Bool NArith ZArith Arith Lia.
From QV Require Import Bits Bexp BexpTT M_Codec P_Codec M_Bqm.
Import ListNotations.
Local Open Scope Z_scope.

Lemma b2z_range b : 0 <= b2z b <= 1.
Proof. destruct b; cbn; lia. Qed.

Lemma peval_pq_not env a x : peval (zenv env) a = b2z x -> peval (zenv env) (pq_not a) = b2z (negb x).
Proof. intros H. cbn [pq_not peval]. rewrite H. now destruct x. Qed.
Lemma peval_pq_and env a b x y : peval (zenv env) a = b2z x -> peval (zenv env) b = b2z y ->
  peval (zenv env) (pq_and a b) = b2z (andb x y).
Proof. intros Ha Hb. cbn [pq_and peval]. rewrite Ha, Hb. now destruct x, y. Qed.
Lemma peval_pq_or env a b x y : peval (zenv env) a = b2z x -> peval (zenv env) b = b2z y ->
  peval (zenv env) (pq_or a b) = b2z (orb x y).
Proof. intros Ha Hb. cbn [pq_or peval]. rewrite Ha, Hb. now destruct x, y. Qed.
Lemma peval_pq_xor env a b x y : peval (zenv env) a = b2z x -> peval (zenv env) b = b2z y ->
  peval (zenv env) (pq_xor a b) = b2z (xorb x y).
Proof. intros Ha Hb. cbn [pq_xor peval]. rewrite Ha, Hb. now destruct x, y. Qed.

Lemma pq_and_vars a b i : In i (pvars (pq_and a b)) <-> In i (pvars a) \/ In i (pvars b).
Proof. cbn [pq_and pvars]. apply in_app_iff. Qed.
Lemma pq_or_vars a b i : In i (pvars (pq_or a b)) <-> In i (pvars a) \/ In i (pvars b).
Proof. cbn [pq_or pvars]. rewrite !in_app_iff. tauto. Qed.
Lemma pq_xor_vars a b i : In i (pvars (pq_xor a b)) <-> In i (pvars a) \/ In i (pvars b).
Proof. cbn [pq_xor pvars]. rewrite !in_app_iff. cbn [In]. tauto. Qed.

Lemma fold_pair_cons op a x y r :
  fold_pair op (Some a :: x :: y :: r) =
  match fold_pair op (x :: y :: r) with Some p => Some (op a p) | None => None end.
Proof. destruct x as [x|], y as [y|]; reflexivity. Qed.

Definition tr_ok (e : bexp) (p : poly) : Prop :=
  (forall env, peval (zenv env) p = b2z (beval env e)) /\
  (forall i, In i (pvars p) <-> In i (bsyms e)).

(* a pairwise fold of a gate over translated arguments translates the fold of
   the connective, when the gate translates the connective on 0/1 values *)
Lemma fold_pair_ok op (bop : bool -> bool -> bool) (unit : bool) :
  (forall x, bop x unit = x) ->
  (forall a b env x y, peval (zenv env) a = b2z x -> peval (zenv env) b = b2z y ->
                       peval (zenv env) (op a b) = b2z (bop x y)) ->
  (forall a b i, In i (pvars (op a b)) <-> In i (pvars a) \/ In i (pvars b)) ->
  forall l, Forall (fun x => visitable x = true -> exists p, visit x = Some p /\ tr_ok x p) l ->
  (2 <=? List.length l)%nat && forallb visitable l = true ->
  exists p, fold_pair op (map visit l) = Some p /\
    (forall env, peval (zenv env) p = b2z (fold_right (fun x acc => bop (beval env x) acc) unit l)) /\
    (forall i, In i (pvars p) <-> In i (flat_map bsyms l)).
Proof.
  intros Hunit Hop Hvars l IH0 Hv. apply andb_true_iff in Hv as [Hlen Hv]. apply Nat.leb_le in Hlen.
  assert (Hall : Forall (fun x => exists p, visit x = Some p /\ tr_ok x p) l).
  { rewrite forallb_forall in Hv. rewrite Forall_forall in *. intros x Hx. exact (IH0 x Hx (Hv x Hx)). }
  clear IH0 Hv. revert Hlen. induction Hall as [|a r (pa & Ha & Hav & Has) Hr IH]; intros Hlen.
  - cbn in Hlen. lia.
  - assert (Hcons : forall q (t : list bexp), (forall i, In i (pvars q) <-> In i (flat_map bsyms t)) ->
              forall i, In i (pvars (op pa q)) <-> In i (flat_map bsyms (a :: t))).
    { intros q t Hq i. cbn [flat_map]. rewrite Hvars, in_app_iff.
      split; (intros [H|H]; [left; apply Has, H|right; apply Hq, H]). }
    destruct r as [|b [|c r]]; [cbn in Hlen; lia| |].
    + apply Forall_inv in Hr as (pb & Hb & Hbv & Hbs).
      exists (op pa pb). cbn [map]. rewrite Ha, Hb. split; [reflexivity|]. split.
      * intros env. cbn [fold_right]. rewrite Hunit. now apply Hop.
      * apply Hcons. intros i. cbn [flat_map]. rewrite app_nil_r. apply Hbs.
    + destruct IH as (p & Hp & Hpv & Hps); [cbn [List.length]; lia|].
      exists (op pa p). cbn [map] in *. rewrite Ha, fold_pair_cons, Hp. split; [reflexivity|]. split.
      * intros env. cbn [fold_right]. apply Hop; [apply Hav|apply Hpv].
      * apply Hcons, Hps.
Qed.

Lemma fold_pair_some op : forall l p, fold_pair op l = Some p ->
  (2 <= List.length l)%nat /\ Forall (fun o => o <> None) l.
Proof.
  induction l as [|x r IH]; intros p H; [discriminate|].
  destruct x as [a|]; [|discriminate].
  destruct r as [|y r]; [discriminate|]. destruct r as [|z r].
  - destruct y as [b|]; [|discriminate]. split; [cbn; lia|]. repeat constructor; discriminate.
  - rewrite fold_pair_cons in H. destruct (fold_pair op (y :: z :: r)) as [q|] eqn:E; [|discriminate].
    destruct (IH q eq_refl) as [Hl Hf]. split; [cbn [List.length] in *; lia|].
    constructor; [discriminate|exact Hf].
Qed.

Lemma visit_ok : forall e, visitable e = true -> exists p, visit e = Some p /\ tr_ok e p.
Proof.
  induction e as [b|i|e IH|l IH|l IH|l IH|c t e IHc IHt IHe|a b IHa IHb] using bexp_ind2;
    cbn [visitable]; intros Hv; try discriminate.
  - exists (PConst (b2z b)). split; [reflexivity|]. split; [intros env; now destruct b|]. intros i; reflexivity.
  - exists (PVar i). split; [reflexivity|]. split; [reflexivity|]. intros j; reflexivity.
  - destruct (IH Hv) as (p & Hp & Hpv & Hps). exists (pq_not p). cbn [visit]. rewrite Hp. split; [reflexivity|]. split.
    + intros env. rewrite beval_not. now apply peval_pq_not.
    + exact Hps.
  - exact (fold_pair_ok pq_and andb true andb_true_r (fun a b env => peval_pq_and env a b) pq_and_vars l IH Hv).
  - apply andb_true_iff in Hv as [Hlen Hall]. apply Nat.eqb_eq in Hlen.
    destruct l as [|x [|y [|z r]]]; try discriminate.
    cbn [forallb] in Hall. apply andb_true_iff in Hall as [Hx Hy]. apply andb_true_iff in Hy as [Hy _].
    destruct (Forall_inv IH Hx) as (px & Hpx & Hxv & Hxs).
    destruct (Forall_inv (Forall_inv_tail IH) Hy) as (py & Hpy & Hyv & Hys).
    exists (pq_or px py). cbn [visit map]. rewrite Hpx, Hpy. split; [reflexivity|]. split.
    + intros env. rewrite beval_or. cbn [existsb]. rewrite orb_false_r. now apply peval_pq_or.
    + intros i. rewrite pq_or_vars. cbn [bsyms flat_map]. rewrite app_nil_r, in_app_iff.
      split; (intros [H|H]; [left; apply Hxs, H|right; apply Hys, H]).
  - exact (fold_pair_ok pq_xor xorb false xorb_false_r (fun a b env => peval_pq_xor env a b) pq_xor_vars l IH Hv).
Qed.

Lemma fold_pair_visitable op l p : fold_pair op (map visit l) = Some p ->
  Forall (fun e => forall p, visit e = Some p -> visitable e = true) l ->
  (2 <=? List.length l)%nat && forallb visitable l = true.
Proof.
  intros H IH. destruct (fold_pair_some _ _ _ H) as [Hl Hf]. rewrite map_length in Hl.
  apply andb_true_iff. split; [now apply Nat.leb_le|]. clear H Hl.
  induction IH as [|x r Hx _ IHr]; [reflexivity|]. cbn [map] in Hf. apply Forall_cons_iff in Hf as [Hn Hf].
  cbn [forallb]. destruct (visit x) as [q|]; [|congruence]. now rewrite (Hx q eq_refl), IHr.
Qed.

(* the domain of visit: it raises exactly outside the shape `visitable` *)
Lemma visit_some_visitable : forall e p, visit e = Some p -> visitable e = true.
Proof.
  induction e as [b|i|e IH|l IH|l IH|l IH|c t e IHc IHt IHe|a b IHa IHb] using bexp_ind2;
    cbn [visit visitable]; intros p H; try reflexivity; try discriminate.
  - destruct (visit e) as [q|]; [|discriminate]. now apply (IH q).
  - exact (fold_pair_visitable _ _ _ H IH).
  - destruct l as [|x [|y [|z r]]]; cbn [map] in H; try discriminate.
    + destruct (visit x); discriminate.
    + destruct (visit x) as [px|] eqn:Ex; [|discriminate]. destruct (visit y) as [py|] eqn:Ey; [|discriminate].
      inversion IH as [|? ? IHx IH']; subst. inversion IH' as [|? ? IHy _]; subst.
      cbn [List.length Nat.eqb forallb]. now rewrite (IHx px Ex), (IHy py Ey).
    + destruct (visit x); [destruct (visit y)|]; discriminate.
  - exact (fold_pair_visitable _ _ _ H IH).
Qed.

Lemma visit_some_ok e p : visit e = Some p -> tr_ok e p.
Proof.
  intros H. destruct (visit_ok e (visit_some_visitable e p H)) as (q & Hq & Hok).
  rewrite H in Hq. now injection Hq as <-.
Qed.

Lemma mapM_opt_some {A B} (f : A -> option B) : forall l ys, mapM_opt f l = Some ys -> Forall2 (fun x y => f x = Some y) l ys.
Proof.
  induction l as [|x r IH]; intros ys H; cbn [mapM_opt] in H.
  - injection H as <-. constructor.
  - destruct (f x) as [y|] eqn:Ex; [|discriminate].
    destruct (mapM_opt f r) as [ys'|] eqn:Er; [|discriminate].
    injection H as <-. constructor; [exact Ex|]. now apply IH.
Qed.

Lemma mapM_opt_ext {A B} (f g : A -> option B) l : (forall x, In x l -> f x = g x) -> mapM_opt f l = mapM_opt g l.
Proof.
  induction l as [|x r IH]; intros H; [reflexivity|]. cbn [mapM_opt].
  rewrite (H x) by now left. rewrite IH; [reflexivity|]. intros y Hy. apply H. now right.
Qed.

Lemma peval_fold_left_add env r : forall t,
  peval env (fold_left PAdd r t) = peval env t + fold_right (fun q acc => peval env q + acc) 0 r.
Proof. induction r as [|q r IH]; intros t; cbn [fold_left fold_right]; [lia|]. rewrite IH. cbn [peval]. lia. Qed.

Lemma pvars_fold_left_add r : forall t i,
  In i (pvars (fold_left PAdd r t)) <-> In i (pvars t) \/ In i (flat_map pvars r).
Proof.
  induction r as [|q r IH]; intros t i; cbn [fold_left flat_map].
  - split; [now left|]. intros [H|[]]. exact H.
  - rewrite IH. cbn [pvars]. rewrite !in_app_iff. tauto.
Qed.

Lemma sum_terms_some ts p : sum_terms ts = Some p ->
  (forall env, peval env p = fold_right (fun q acc => peval env q + acc) 0 ts) /\
  (forall i, In i (pvars p) <-> In i (flat_map pvars ts)).
Proof.
  unfold sum_terms. destruct ts as [|t r]; [discriminate|].
  destruct (forallb is_pyconst (t :: r)); [discriminate|]. intros H. injection H as <-. split.
  - intros env. rewrite peval_fold_left_add. reflexivity.
  - intros i. rewrite pvars_fold_left_add. cbn [flat_map]. now rewrite in_app_iff.
Qed.

Lemma count_true_nonneg env merged : 0 <= count_true env merged.
Proof.
  unfold count_true. induction merged as [|se r IH]; cbn [fold_right]; [lia|].
  pose proof (b2z_range (beval env (snd se))). lia.
Qed.

Lemma count_true_zero env merged :
  count_true env merged = 0 <-> forallb (fun se => negb (beval env (snd se))) merged = true.
Proof.
  unfold count_true. induction merged as [|se r IH]; cbn [fold_right forallb]; [tauto|].
  pose proof (count_true_nonneg env r) as Hr. unfold count_true in Hr.
  destruct (beval env (snd se)); cbn [b2z negb andb].
  - split; [lia|discriminate].
  - rewrite <- IH. split; lia.
Qed.

(* the code before fix 1fe79c8 agrees with the repaired code when no return expression is a bare symbol *)
Definition not_bare_symbol (e : bexp) : bool := match e with BSym _ => false | _ => true end.
