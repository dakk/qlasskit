(* Prop_C01.v — the decision on which the per-program checks of C01 rest.  The
   theorems of C01 proper are in Prop_C01_types.v, Prop_C01_texp.v,
   Prop_C01_a2a.v and Prop_C01_e2e.v; see DESIGN.md 5/C01. *)
From Coq Require Import List Bool NArith Arith.
From QV Require Import Bits Bexp BexpTT.
Import ListNotations.
Local Open Scope N_scope.

Theorem C01_expression_equivalence_decided : forall n e1 e2,
  syms_below n e1 = true -> syms_below n e2 = true ->
  (bexp_equiv_tt n e1 e2 = true <-> forall x, x < pow2n n -> beval (asg x) e1 = beval (asg x) e2).
Proof. exact bexp_equiv_tt_correct. Qed.
Print Assumptions C01_expression_equivalence_decided.
