(* Prop_C17.v — property C17 "Command-line tools print what the library computes",
   stated against the model M_Dimacs.v of py2bexp.py as repaired by fixes 2b91a6e
   (conjunction) and 287dcaa (DIMACS clauses).
   sympy's to_cnf/to_anf/to_dnf/to_nnf and merge_expressions are contract oracles
   (hypotheses here, checked per call by harness/c17.py).  argparse / tempfile /
   import glue and the QASM printer are exercised by the harness, not modelled.
   The lemmas the proofs rest on are in P_Dimacs.v.  The `_refuted` Examples are about
   the model of the code before those fixes (to_dimacs_today, conj_today). *)
From Coq Require Import List Bool NArith ZArith Arith Lia String Sorted.
From QV Require Import Bexp BexpTT M_Dimacs P_Dimacs.
Import ListNotations.
Local Open Scope Z_scope.

(* DIMACS printing: for every expression in CNF shape (conjunction of clauses, one
   clause, one literal, True, False) and every enumeration order of its symbols,
   the printed header counts are right, every literal is a number in 1..nvars, and
   an assignment satisfies the printed clause list iff it satisfies the expression *)
Theorem dimacs_models_iff : forall cnf order,
  cnf_shape cnf = true -> NoDup order -> incl (bsyms cnf) order ->
  exists cls,
    to_dimacs_fixed cnf order = Some (List.length order, List.length cls, cls) /\
    List.length cls = List.length (clauses_fixed cnf) /\
    well_numbered (List.length order) cls = true /\
    (forall s, dimacs_sat s cls = beval (fun i => s (num order i)) cnf) /\
    (forall env, dimacs_sat (fun k => env (unnum order k)) cls = beval env cnf).
Proof. intros cnf order Hs _. exact (dimacs_models cnf order Hs). Qed.
Print Assumptions dimacs_models_iff.

Example dimacs_models_iff_nonvacuous :
  let cnf := BAnd [BOr [BSym 0; BSym 1; BNot (BSym 2)]; BOr [BSym 2; BNot (BSym 1)]] in
  cnf_shape cnf = true /\ NoDup [2; 0; 1]%nat /\ incl (bsyms cnf) [2; 0; 1]%nat /\
  to_dimacs_fixed cnf [2; 0; 1]%nat = Some (3%nat, 2%nat, [[2; 3; -1]; [1; -3]]).
Proof.
  cbv zeta. split; [reflexivity|]. split; [repeat constructor; cbn; intuition discriminate|].
  split; [|reflexivity]. intros i Hi. cbn in Hi. cbn. intuition.
Qed.

(* the numbering built by the code is one-to-one between the symbols and 1..nvars *)
Theorem numbering_bijective : forall order, NoDup order ->
  (forall i, In i order -> (1 <= num order i <= List.length order)%nat /\ unnum order (num order i) = i) /\
  (forall k, (1 <= k <= List.length order)%nat -> In (unnum order k) order /\ num order (unnum order k) = k) /\
  (forall i j, In i order -> In j order -> num order i = num order j -> i = j).
Proof.
  intros order Hnd. split; [|split].
  - intros i Hi. split; [now apply num_range|now apply unnum_num].
  - intros k Hk. split; [unfold unnum; apply nth_In; lia|now apply num_unnum].
  - apply num_injective.
Qed.
Print Assumptions numbering_bijective.

(* the conjunction printed (since fix 2b91a6e over the merged return expressions) is over
   the argument bits and is true exactly when every return bit is true *)
Theorem conj_fixed_equiv : forall exprs merged rets n,
  merge_contract exprs merged rets n ->
  syms_below n (conj_fixed merged) = true /\
  forall env, beval env (conj_fixed merged) = rets_all_true env exprs rets.
Proof.
  intros exprs merged rets n [Hf [Hs He]]. unfold conj_fixed, rets_all_true. subst rets. split.
  - unfold syms_below. cbn [bsyms]. apply forallb_forall. intros i Hi.
    apply in_flat_map in Hi as [e [He1 He2]]. apply in_map_iff in He1 as [[s e'] [<- Hin]].
    specialize (Hs s e' Hin). unfold syms_below in Hs. rewrite forallb_forall in Hs. now apply Hs.
  - intros env. rewrite beval_and. clear Hs.
    induction merged as [|[s e] r IH]; [reflexivity|]. cbn [map forallb fst snd].
    rewrite (He env s e) by now left. f_equal. apply IH. intros env' s' e' H. apply He. now right.
Qed.
Print Assumptions conj_fixed_equiv.

Example conj_fixed_equiv_nonvacuous :
  (* x3 = a & b ; _ret = x3 | c   merged to   _ret = (a & b) | c *)
  merge_contract [(3, BAnd [BSym 0; BSym 1]); (4, BOr [BSym 3; BSym 2])]%nat
                 [(4, BOr [BAnd [BSym 0; BSym 1]; BSym 2])]%nat [4]%nat 3.
Proof.
  split; [reflexivity|]. split.
  - intros s e [H|[]]. now injection H as <- <-.
  - intros env s e [H|[]]. injection H as <- <-. unfold run_defs, beval. cbn.
    destruct (env 0%nat), (env 1%nat), (env 2%nat); reflexivity.
Qed.

(* the whole DIMACS path: normal form (any equivalent expression), to_cnf, printing *)
Theorem dimacs_pipeline : forall to_cnf : bexp -> bexp,
  (forall e, cnf_shape (to_cnf e) = true /\ (forall env, beval env (to_cnf e) = beval env e) /\
             incl (bsyms (to_cnf e)) (bsyms e)) ->
  forall exprs merged rets n expr order,
    merge_contract exprs merged rets n ->
    (forall env, beval env expr = beval env (conj_fixed merged)) ->
    NoDup order -> incl (bsyms expr) order ->
    exists cls,
      to_dimacs_fixed (to_cnf expr) order = Some (List.length order, List.length cls, cls) /\
      well_numbered (List.length order) cls = true /\
      forall env, dimacs_sat (fun k => env (unnum order k)) cls = rets_all_true env exprs rets.
Proof.
  intros to_cnf Hcnf exprs merged rets n expr order Hm Heq Hnd Hin.
  destruct (Hcnf expr) as [Hs [He Hi]].
  destruct (dimacs_models_iff (to_cnf expr) order Hs Hnd) as [cls [H1 [_ [H3 [_ H5]]]]].
  { intros i H. apply Hin, Hi, H. }
  exists cls. split; [exact H1|]. split; [exact H3|].
  intros env. rewrite H5, He, Heq. now apply (conj_fixed_equiv exprs merged rets n).
Qed.
Print Assumptions dimacs_pipeline.

(* before fix 287dcaa.  Single clause a | b: printed as the two unit clauses "1 0", "2 0" *)
Example dimacs_today_single_clause_refuted :
  exists cnf order d s, cnf_shape cnf = true /\ NoDup order /\ incl (bsyms cnf) order /\
    to_dimacs_today cnf order = Some d /\ d_nclauses d = 2%nat /\
    dimacs_sat s (d_clauses d) <> beval (fun i => s (num order i)) cnf.
Proof.
  exists (BOr [BSym 0; BSym 1]), [0; 1]%nat, (2%nat, 2%nat, [[1]; [2]]), (fun k => Nat.eqb k 1).
  split; [reflexivity|]. split; [repeat constructor; cbn; intuition discriminate|].
  split; [intros i Hi; exact Hi|]. split; [reflexivity|]. split; [reflexivity|]. vm_compute. discriminate.
Qed.

(* negative literal ~a: KeyError *)
Example dimacs_today_negative_literal_refuted :
  cnf_shape (BNot (BSym 0)) = true /\ to_dimacs_today (BNot (BSym 0)) [0%nat] = None /\
  to_dimacs_fixed (BNot (BSym 0)) [0%nat] = Some (1%nat, 1%nat, [[-1]]).
Proof. repeat split. Qed.

(* single symbol a: no clause printed, so a = 0 "satisfies" the output *)
Example dimacs_today_single_symbol_refuted :
  to_dimacs_today (BSym 0) [0%nat] = Some (1%nat, 0%nat, []) /\
  dimacs_sat (fun _ => false) [] <> beval (fun _ => false) (BSym 0) /\
  to_dimacs_fixed (BSym 0) [0%nat] = Some (1%nat, 1%nat, [[1]]).
Proof. split; [reflexivity|]. split; [vm_compute; discriminate|reflexivity]. Qed.

(* False: printed as the empty clause LIST (satisfiable) instead of the empty clause *)
Example dimacs_today_false_refuted :
  to_dimacs_today (BConst false) [] = Some (0%nat, 0%nat, []) /\
  dimacs_sat (fun _ => false) [] <> beval (fun _ => false) (BConst false) /\
  to_dimacs_fixed (BConst false) [] = Some (0%nat, 1%nat, [[]]).
Proof. split; [reflexivity|]. split; [vm_compute; discriminate|reflexivity]. Qed.

(* that extraction is right on a conjunction of two or more proper clauses *)
Theorem dimacs_today_partial : forall l order,
  (2 <= List.length l)%nat -> forallb is_clause_nf l = true ->
  to_dimacs_today (BAnd l) order = to_dimacs_fixed (BAnd l) order.
Proof.
  intros l order Hlen Hcl. unfold to_dimacs_today, to_dimacs_fixed. cbn [sargs clauses_fixed].
  assert (E : mapM (fun c => mapM (lit_num order) (lits_today c)) l =
              mapM (fun c => mapM (lit_num order) (lits_fixed c)) l).
  { apply mapM_ext. intros c Hc. rewrite forallb_forall in Hcl. now rewrite lits_today_fixed by (apply Hcl, Hc). }
  rewrite E. destruct l as [|a [|b r]]; cbn [List.length] in Hlen; try lia. destruct a; reflexivity.
Qed.
Print Assumptions dimacs_today_partial.

(* before fix 2b91a6e the conjunction takes every right-hand side, intermediates included:
   x3 = a & b ; _ret = x3 | c  prints (a & b) & (x3 | c), which mentions x3 and,
   even with x3 read as a & b, is false at a=b=0, c=1 where _ret is true *)
Example conj_today_refuted :
  exists exprs rets n env,
    syms_below n (conj_today exprs) = false /\
    env 3%nat = beval env (BAnd [BSym 0; BSym 1]) /\
    beval env (conj_today exprs) <> rets_all_true env exprs rets.
Proof.
  exists [(3, BAnd [BSym 0; BSym 1]); (4, BOr [BSym 3; BSym 2])]%nat, [4]%nat, 3%nat, (fun i => Nat.eqb i 2).
  split; [reflexivity|]. split; [reflexivity|]. vm_compute. discriminate.
Qed.

(* ... and is right when the expression list defines only return bits over the arguments *)
Theorem conj_today_partial : forall exprs,
  NoDup (map fst exprs) ->
  (forall s e, In (s, e) exprs -> forall i, In i (bsyms e) -> ~ In i (map fst exprs)) ->
  forall env, beval env (conj_today exprs) = rets_all_true env exprs (map fst exprs).
Proof.
  (* with no intermediates, running the definitions gives each symbol its own right-hand side *)
  intros exprs Hnd Hfree env. unfold conj_today, rets_all_true. rewrite beval_and.
  assert (H : forall l, incl l exprs -> forallb (beval env) (map snd l) = forallb (run_defs env exprs) (map fst l)).
  { induction l as [|[s e] r IH]; intros Hl; [reflexivity|]. cbn [map forallb fst snd].
    rewrite (run_defs_in exprs env s e Hnd).
    - f_equal. apply IH. intros x Hx. apply Hl. now right.
    - apply Hl. now left.
    - apply (Hfree s e). apply Hl. now left. }
  apply H, incl_refl.
Qed.
Print Assumptions conj_today_partial.

(* a script with a single function needs no option *)
Theorem select_single : forall (A : Type) (n : string) (x : A), select None [(n, x)] = Some x.
Proof. reflexivity. Qed.
Print Assumptions select_single.

(* "-e name" selects the member of that name; an unknown name selects nothing *)
Theorem select_named : forall (A : Type) (l : list (string * A)) n x,
  n <> EmptyString -> NoDup (map fst l) -> In (n, x) l -> select_members (Some n) l = Some x.
Proof.
  intros A l n x Hn Hnd Hin. unfold select_members.
  destruct (String.eqb_spec n EmptyString) as [->|_]; [congruence|]. now apply find_named_in.
Qed.
Print Assumptions select_named.

Theorem select_absent : forall (A : Type) (l : list (string * A)) n,
  n <> EmptyString -> ~ In n (map fst l) -> select_members (Some n) l = None.
Proof.
  intros A l n Hn H. unfold select_members.
  destruct (String.eqb_spec n EmptyString) as [->|_]; [congruence|]. now apply find_named_absent.
Qed.
Print Assumptions select_absent.

(* no option: getmembers is sorted by name, so the function chosen is the one whose
   name is alphabetically greatest, whatever the order of definition *)
Theorem getmembers_sorted : forall (A : Type) (ds : list (string * A)),
  StronglySorted name_lt (getmembers ds).
Proof.
  intros A ds. unfold getmembers.
  assert (H : forall acc, StronglySorted name_lt acc ->
            StronglySorted name_lt (fold_left (fun acc p => insert_member p acc) ds acc)).
  { induction ds as [|p r IH]; intros acc Hacc; [exact Hacc|]. cbn [fold_left]. apply IH.
    now apply insert_member_sorted. }
  apply H. constructor.
Qed.
Print Assumptions getmembers_sorted.

Theorem select_default_greatest : forall (A : Type) (ds : list (string * A)) x,
  select None ds = Some x ->
  exists n, In (n, x) (getmembers ds) /\
    forall m y, In (m, y) (getmembers ds) -> m = n \/ String.compare m n = Lt.
Proof.
  (* the member chosen is the last of a list sorted by name *)
  intros A ds x H. pose proof (getmembers_sorted A ds) as Hs.
  apply find_last_some in H as (l & n & E). rewrite E in *. exists n. split; [apply in_elt|].
  intros m y Hin. apply in_app_or in Hin as [Hin|[Heq|[]]]; [right|left; congruence].
  apply sorted_below_last in Hs. rewrite Forall_forall in Hs. exact (Hs _ Hin).
Qed.
Print Assumptions select_default_greatest.

Local Open Scope string_scope.
Example select_examples :
  select None [("zz", 1%nat); ("aa", 2%nat); ("mm", 3%nat)] = Some 1%nat /\
  select (Some "aa") [("zz", 1%nat); ("aa", 2%nat); ("mm", 3%nat)] = Some 2%nat /\
  select (Some "qq") [("zz", 1%nat); ("aa", 2%nat); ("mm", 3%nat)] = None /\
  select (Some "") [("zz", 1%nat); ("aa", 2%nat)] = Some 1%nat /\
  select None [("b", 1%nat); ("a", 2%nat); ("b", 3%nat)] = Some 3%nat.
Proof. repeat split. Qed.
