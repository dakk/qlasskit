(* WH.v — Walsh-Hadamard algebra on integer amplitudes, for EVERY n.
   sumN n f is the sum of f x over x < 2^n;  WH n psi i = sum over x < 2^n of
   (-1)^(x.i) psi(i with its low n bits replaced by x);  hlayer n psi is the reference H gate of
   Amp.v applied to qubits 0, 1, .., n-1 in turn.  The two agree pointwise (hlayer_WH), so what
   the algorithms need of a layer of H gates is proved on sums: the character sum
   sum_x (-1)^(x.t) = 2^n [t = 0], linearity, the layer applied twice = 2^n times the identity, and
   H^n ; (sign flip where the low n bits are 0) ; H^n  =  2^n psi - 2 * (sum of psi over the low
   n bits), Grover's diffuser.  Functions are compared pointwise and extensionality is carried
   by hand (sumN_ext, WH_ext, hlayer_ext): no functional extensionality axiom. *)
From Coq Require Import List Bool NArith ZArith Arith Lia.
From QV Require Import Bits BexpTT Circ Amp.
Import ListNotations.
Local Open Scope N_scope.

Lemma lt_pow2_bits x n : x < 2 ^ n <-> (forall m, n <= m -> N.testbit x m = false).
Proof.
  split.
  - intros H m. now apply testbit_small_le.
  - intros H. destruct (N.eq_dec x 0) as [->|Hx]; [apply N.neq_0_lt_0, N.pow_nonzero; lia|].
    apply N.log2_lt_pow2; [lia|]. destruct (N.lt_ge_cases (N.log2 x) n) as [Hl|Hl]; [exact Hl|].
    specialize (H (N.log2 x) Hl). rewrite (N.bit_log2 x Hx) in H. discriminate.
Qed.

(* x is a basis index of an n-qubit register.  The name hides Datatypes.inr in every file
   that imports this one. *)
Definition inr (n : nat) (x : N) : Prop := x < pow2n n.

Lemma inr_bits n x : inr n x <-> (forall m, N.of_nat n <= m -> N.testbit x m = false).
Proof. apply lt_pow2_bits. Qed.

Lemma inr_high n x m : inr n x -> N.of_nat n <= m -> N.testbit x m = false.
Proof. intros H. now apply inr_bits. Qed.

Lemma inr_S n x : inr n x -> inr (S n) x.
Proof. rewrite !inr_bits. intros H m Hm. apply H. lia. Qed.

Lemma inr_setbit n x : inr n x -> inr (S n) (N.setbit x (N.of_nat n)).
Proof.
  rewrite !inr_bits. intros H m Hm. rewrite N.setbit_eqb, H by lia.
  destruct (N.eqb_spec (N.of_nat n) m); [lia|reflexivity].
Qed.

Lemma inr_top_clear n a : inr (S n) a -> N.testbit a (N.of_nat n) = false -> inr n a.
Proof.
  rewrite !inr_bits. intros H Hb m Hm. destruct (N.eq_dec m (N.of_nat n)) as [->|Hne]; [exact Hb|].
  apply H. lia.
Qed.

Lemma inr_clearbit n a : inr (S n) a -> inr n (N.clearbit a (N.of_nat n)).
Proof.
  rewrite !inr_bits. intros H m Hm. rewrite N.clearbit_eqb.
  destruct (N.eqb_spec (N.of_nat n) m) as [<-|Hne]; [apply andb_false_r|].
  rewrite H by lia. reflexivity.
Qed.

Lemma inr_O_eq a : inr 0 a -> a = 0.
Proof. unfold inr, pow2n. change (2 ^ N.of_nat 0) with 1. lia. Qed.

Lemma inr_0 n : inr n 0.
Proof. apply inr_bits. intros m _. apply N.bits_0. Qed.

(* a bounded search is decidable *)
Lemma bsearch n : forall P : N -> bool,
  (forall x, inr n x -> P x = false) \/ (exists x, inr n x /\ P x = true).
Proof.
  induction n as [|n IH]; intros P.
  - destruct (P 0) eqn:E; [right; exists 0; split; [apply inr_0|exact E]|left].
    intros x Hxx. now rewrite (inr_O_eq x Hxx).
  - destruct (IH P) as [H1|(x & Hxx & Hp)]; [|right; exists x; split; [now apply inr_S|exact Hp]].
    destruct (IH (fun x => P (N.setbit x (N.of_nat n)))) as [H2|(x & Hxx & Hp)];
      [|right; exists (N.setbit x (N.of_nat n)); split; [now apply inr_setbit|exact Hp]].
    left. intros x Hxx. destruct (N.testbit x (N.of_nat n)) eqn:E.
    + rewrite <- (setbit_clearbit x (N.of_nat n) E). apply H2. now apply inr_clearbit.
    + apply H1. now apply inr_top_clear.
Qed.

Fixpoint sumN (n : nat) (f : N -> Z) : Z :=
  match n with
  | O => f 0
  | S m => (sumN m f + sumN m (fun x => f (N.setbit x (N.of_nat m))))%Z
  end.

Lemma sumN_ext n : forall f g, (forall x, inr n x -> f x = g x) -> sumN n f = sumN n g.
Proof.
  induction n as [|n IH]; intros f g H; cbn [sumN].
  - apply H, inr_0.
  - rewrite (IH f g), (IH (fun x => f (N.setbit x (N.of_nat n))) (fun x => g (N.setbit x (N.of_nat n)))); [reflexivity| |].
    + intros x Hx. apply H. now apply inr_setbit.
    + intros x Hx. apply H. now apply inr_S.
Qed.

Lemma sumN_add n : forall f g, sumN n (fun x => (f x + g x)%Z) = (sumN n f + sumN n g)%Z.
Proof. induction n as [|n IH]; intros f g; cbn [sumN]; [reflexivity|]. rewrite !IH. lia. Qed.

Lemma sumN_scale n c : forall f, sumN n (fun x => (c * f x)%Z) = (c * sumN n f)%Z.
Proof. induction n as [|n IH]; intros f; cbn [sumN]; [reflexivity|]. rewrite !IH. lia. Qed.

Lemma sumN_opp n f : sumN n (fun x => (- f x)%Z) = (- sumN n f)%Z.
Proof.
  rewrite (sumN_ext n _ (fun x => (-1 * f x)%Z)) by (intros; lia). rewrite sumN_scale. lia.
Qed.

Lemma sumN_zero n : sumN n (fun _ => 0%Z) = 0%Z.
Proof. induction n as [|n IH]; cbn [sumN]; [reflexivity|]. rewrite !IH. reflexivity. Qed.

(* 2^n in Z: n unnormalised H gates scale the amplitudes by it *)
Definition pow2z (n : nat) : Z := (2 ^ Z.of_nat n)%Z.
Lemma pow2z_0 : pow2z 0 = 1%Z.
Proof. reflexivity. Qed.
Lemma pow2z_S n : pow2z (S n) = (2 * pow2z n)%Z.
Proof. unfold pow2z. rewrite Nat2Z.inj_succ, Z.pow_succ_r by lia. reflexivity. Qed.

Lemma sumN_const n c : sumN n (fun _ => c) = (pow2z n * c)%Z.
Proof. induction n as [|n IH]; cbn [sumN]; [rewrite pow2z_0; lia|]. rewrite IH, pow2z_S. lia. Qed.

Lemma inr_lxor n a b : inr n a -> inr n b -> inr n (N.lxor a b).
Proof. rewrite !inr_bits. intros Ha Hb m Hm. now rewrite N.lxor_spec, Ha, Hb. Qed.
Lemma inr_flipq n q x : q < N.of_nat n -> inr n x -> inr n (flipq q x).
Proof.
  rewrite !inr_bits. intros Hq H m Hm. rewrite flipq_testbit_other by lia. now apply H.
Qed.

(* the upper half of the range is the lower half with the top qubit flipped *)
Lemma sumN_S n f : sumN (S n) f = (sumN n f + sumN n (fun x => f (flipq (N.of_nat n) x)))%Z.
Proof.
  cbn [sumN]. f_equal. apply sumN_ext. intros x Hx.
  now rewrite setbit_flipq, (inr_high n x) by (assumption || lia).
Qed.

(* reindexing a sum by xor with a constant below 2^n: when the top bit of s is set the two
   halves are exchanged *)
Lemma sumN_lxor n : forall s f, inr n s -> sumN n (fun x => f (N.lxor x s)) = sumN n f.
Proof.
  induction n as [|n IH]; intros s f Hs; [now rewrite (inr_O_eq s Hs)|].
  set (q := N.of_nat n). rewrite !sumN_S. fold q. destruct (N.testbit s q) eqn:Hb.
  - pose proof (inr_clearbit n s Hs) as Hs'. fold q in Hs'. rewrite clearbit_flipq, Hb in Hs'.
    assert (E : forall x, N.lxor x s = flipq q (N.lxor x (flipq q s)))
      by (intros x; unfold flipq; now rewrite !N.lxor_assoc, N.lxor_nilpotent, N.lxor_0_r).
    rewrite (sumN_ext n (fun x => f (N.lxor x s)) (fun x => f (flipq q (N.lxor x (flipq q s)))))
      by (intros x _; now rewrite E).
    rewrite (sumN_ext n (fun x => f (N.lxor (flipq q x) s)) (fun x => f (N.lxor x (flipq q s))))
      by (intros x _; now rewrite E, flipq_lxor, flipq_invol).
    rewrite (IH _ (fun y => f (flipq q y)) Hs'), (IH _ f Hs'). lia.
  - pose proof (inr_top_clear n s Hs Hb) as Hs'.
    rewrite (sumN_ext n (fun x => f (N.lxor (flipq q x) s)) (fun x => f (flipq q (N.lxor x s))))
      by (intros x _; now rewrite flipq_lxor).
    now rewrite (IH s f Hs'), (IH s (fun y => f (flipq q y)) Hs').
Qed.

Lemma sumN_at0 n : forall h, sumN n (fun x => if N.eqb x 0 then h x else 0%Z) = h 0.
Proof.
  induction n as [|n IH]; intros h; cbn [sumN]; [reflexivity|].
  rewrite IH, (sumN_ext n _ (fun _ => 0%Z)), sumN_zero; [lia|].
  intros x _. destruct (N.eqb_spec (N.setbit x (N.of_nat n)) 0) as [E|_]; [|reflexivity].
  apply (f_equal (fun y => N.testbit y (N.of_nat n))) in E. now rewrite N.setbit_eq in E.
Qed.

(* a single point: move it to 0 *)
Lemma sumN_single n a g : inr n a ->
  sumN n (fun x => if N.eqb x a then g x else 0%Z) = g a.
Proof.
  intros Ha. rewrite <- (sumN_lxor n a (fun x => if N.eqb x a then g x else 0%Z) Ha).
  transitivity (sumN n (fun x => if N.eqb x 0 then g (N.lxor x a) else 0%Z));
    [|rewrite (sumN_at0 n (fun y => g (N.lxor y a))); now rewrite N.lxor_0_l].
  apply sumN_ext. intros x _. destruct (N.eqb_spec x 0) as [->|Hne]; [now rewrite N.lxor_0_l, N.eqb_refl|].
  destruct (N.eqb_spec (N.lxor x a) a) as [E|_]; [|reflexivity]. elim Hne.
  apply (f_equal (fun y => N.lxor y a)) in E. now rewrite N.lxor_assoc, N.lxor_nilpotent, N.lxor_0_r in E.
Qed.

Lemma sumN_two n a b g : inr n a -> inr n b -> a <> b ->
  sumN n (fun x => if N.eqb x a || N.eqb x b then g x else 0%Z) = (g a + g b)%Z.
Proof.
  intros Ha Hb Hab.
  rewrite (sumN_ext n _ (fun x => ((if N.eqb x a then g x else 0) + (if N.eqb x b then g x else 0))%Z)).
  - now rewrite sumN_add, !sumN_single.
  - intros x _. destruct (N.eqb_spec x a) as [Ea|_], (N.eqb_spec x b) as [Eb|_]; cbn [orb]; lia.
Qed.

Definition sgn (b : bool) (z : Z) : Z := if b then (- z)%Z else z.

Lemma refH_sgn q psi i :
  refH q psi i = (psi (N.clearbit i q) + sgn (N.testbit i q) (psi (N.setbit i q)))%Z.
Proof. reflexivity. Qed.

Lemma sgn_xorb a b z : sgn (xorb a b) z = sgn a (sgn b z).
Proof. destruct a, b; cbn [sgn xorb]; lia. Qed.
Lemma sgn_add b x y : sgn b (x + y)%Z = (sgn b x + sgn b y)%Z.
Proof. destruct b; cbn [sgn xorb]; lia. Qed.
Lemma sgn_0 b : sgn b 0 = 0%Z.
Proof. now destruct b. Qed.
Lemma sgn_invol b z : sgn b (sgn b z) = z.
Proof. destruct b; cbn [sgn xorb]; lia. Qed.

Fixpoint dotb (n : nat) (x y : N) : bool :=
  match n with
  | O => false
  | S m => xorb (N.testbit x (N.of_nat m) && N.testbit y (N.of_nat m)) (dotb m x y)
  end.

Lemma dotb_ext n : forall x x' y y',
  (forall j, j < N.of_nat n -> N.testbit x j = N.testbit x' j) ->
  (forall j, j < N.of_nat n -> N.testbit y j = N.testbit y' j) -> dotb n x y = dotb n x' y'.
Proof.
  induction n as [|n IH]; intros x x' y y' Hx Hy; cbn [dotb]; [reflexivity|].
  rewrite Hx, Hy by lia. f_equal. apply IH; intros j Hj; [apply Hx|apply Hy]; lia.
Qed.

Lemma dotb_comm n x y : dotb n x y = dotb n y x.
Proof. induction n as [|n IH]; cbn [dotb]; [reflexivity|]. now rewrite IH, andb_comm. Qed.

Lemma dotb_lxor_r n x a b : dotb n x (N.lxor a b) = xorb (dotb n x a) (dotb n x b).
Proof.
  induction n as [|n IH]; cbn [dotb]; [reflexivity|]. rewrite IH, N.lxor_spec.
  destruct (N.testbit x (N.of_nat n)); cbn [andb]; [|now rewrite !xorb_false_l].
  rewrite !xorb_assoc_reverse. f_equal. rewrite <- !xorb_assoc_reverse. f_equal. apply xorb_comm.
Qed.
Lemma dotb_lxor_l n a b y : dotb n (N.lxor a b) y = xorb (dotb n a y) (dotb n b y).
Proof. rewrite dotb_comm, dotb_lxor_r. f_equal; apply dotb_comm. Qed.

(* the low n bits are all zero *)
Fixpoint lowz (n : nat) (t : N) : bool :=
  match n with O => true | S m => negb (N.testbit t (N.of_nat m)) && lowz m t end.

Lemma lowz_spec n t : lowz n t = true <-> (forall j, j < N.of_nat n -> N.testbit t j = false).
Proof.
  induction n as [|n IH]; cbn [lowz].
  - split; [intros _ j Hj; lia|reflexivity].
  - rewrite andb_true_iff, negb_true_iff, IH. split.
    + intros [H1 H2] j Hj. destruct (N.eq_dec j (N.of_nat n)) as [->|Hne]; [exact H1|apply H2; lia].
    + intros H. split; [apply H; lia|intros j Hj; apply H; lia].
Qed.

Lemma lowz_0 n : lowz n 0 = true.
Proof. apply lowz_spec. intros. apply N.bits_0. Qed.

Lemma dotb_lowz n x t : lowz n t = true -> dotb n x t = false.
Proof.
  intros H. rewrite lowz_spec in H. induction n as [|n IH]; cbn [dotb]; [reflexivity|].
  rewrite H by lia. rewrite andb_false_r, IH; [reflexivity|]. intros j Hj. apply H. lia.
Qed.

(* index i with its low n bits replaced by those of x *)
Definition setlow (n : nat) (i x : N) : N :=
  N.lor (N.land x (N.ones (N.of_nat n))) (N.ldiff i (N.ones (N.of_nat n))).

Lemma setlow_bits n i x j :
  N.testbit (setlow n i x) j = if j <? N.of_nat n then N.testbit x j else N.testbit i j.
Proof.
  unfold setlow. rewrite N.lor_spec, N.land_spec, N.ldiff_spec, ones_bits.
  destruct (j <? N.of_nat n); cbn [negb]; [now rewrite andb_true_r, andb_false_r, orb_false_r|now rewrite andb_false_r, andb_true_r].
Qed.

Lemma setlow_high n i x j : N.of_nat n <= j -> N.testbit (setlow n i x) j = N.testbit i j.
Proof. intros H. rewrite setlow_bits. apply N.ltb_ge in H. now rewrite H. Qed.

Lemma setlow_0 i x : setlow 0 i x = i.
Proof. apply N.bits_inj. intros j. rewrite setlow_bits. destruct (N.ltb_spec j (N.of_nat 0)); [lia|reflexivity]. Qed.

Lemma setlow_self n i : setlow n i i = i.
Proof. apply N.bits_inj. intros j. rewrite setlow_bits. now destruct (j <? N.of_nat n). Qed.

Lemma setlow_inr n x : inr n x -> setlow n 0 x = x.
Proof.
  intros H. apply N.bits_inj. intros j. rewrite setlow_bits.
  destruct (N.ltb_spec j (N.of_nat n)) as [Hj|Hj]; [reflexivity|].
  now rewrite (inr_high n x j H Hj), N.bits_0.
Qed.

Lemma setlow_setlow n i x y : setlow n (setlow n i x) y = setlow n i y.
Proof. apply N.bits_inj. intros j. rewrite !setlow_bits. now destruct (j <? N.of_nat n). Qed.

Lemma setlow_ext n i i' x x' :
  (forall j, N.of_nat n <= j -> N.testbit i j = N.testbit i' j) ->
  (forall j, j < N.of_nat n -> N.testbit x j = N.testbit x' j) -> setlow n i x = setlow n i' x'.
Proof.
  intros Hi Hx. apply N.bits_inj. intros j. rewrite !setlow_bits.
  destruct (N.ltb_spec j (N.of_nat n)); [now apply Hx|now apply Hi].
Qed.

(* the top bit of the summation variable, split off *)
Lemma dotb_S n x i (b : bool) : inr n x ->
  dotb (S n) (if b then N.setbit x (N.of_nat n) else x) i = xorb (b && N.testbit i (N.of_nat n)) (dotb n x i).
Proof.
  intros Hx. cbn [dotb]. f_equal.
  - destruct b; [now rewrite N.setbit_eq|]. now rewrite (inr_high n x) by (assumption || lia).
  - destruct b; [|reflexivity]. apply dotb_ext; [|reflexivity]. intros j Hj. apply N.setbit_neq. lia.
Qed.

Lemma setlow_S n i x (b : bool) : inr n x ->
  setlow (S n) i (if b then N.setbit x (N.of_nat n) else x) =
  setlow n (if b then N.setbit i (N.of_nat n) else N.clearbit i (N.of_nat n)) x.
Proof.
  intros Hx. apply N.bits_inj. intros j. rewrite !setlow_bits.
  destruct (N.ltb_spec j (N.of_nat n)) as [H1|H1].
  - replace (j <? N.of_nat (S n)) with true by (symmetry; apply N.ltb_lt; lia).
    destruct b; [apply N.setbit_neq; lia|reflexivity].
  - destruct (N.eq_dec j (N.of_nat n)) as [->|Hne].
    + replace (N.of_nat n <? N.of_nat (S n)) with true by (symmetry; apply N.ltb_lt; lia).
      destruct b; [now rewrite !N.setbit_eq|]. rewrite N.clearbit_eq. now apply (inr_high n x).
    + replace (j <? N.of_nat (S n)) with false by (symmetry; apply N.ltb_ge; lia).
      destruct b; symmetry; [apply N.setbit_neq|apply N.clearbit_neq]; congruence.
Qed.

Lemma sumN_sgn n b f : sumN n (fun x => sgn b (f x)) = sgn b (sumN n f).
Proof. destruct b; cbn [sgn]; [apply sumN_opp|reflexivity]. Qed.

Definition WH (n : nat) (psi : N -> Z) : N -> Z :=
  fun i => sumN n (fun x => sgn (dotb n x i) (psi (setlow n i x))).

Lemma WH_ext n psi phi i : (forall j, psi j = phi j) -> WH n psi i = WH n phi i.
Proof. intros H. unfold WH. apply sumN_ext. intros x _. now rewrite H. Qed.

Lemma WH_add n psi phi i : WH n (fun j => (psi j + phi j)%Z) i = (WH n psi i + WH n phi i)%Z.
Proof. unfold WH. rewrite <- sumN_add. apply sumN_ext. intros x _. apply sgn_add. Qed.

Lemma WH_scale n c psi i : WH n (fun j => (c * psi j)%Z) i = (c * WH n psi i)%Z.
Proof. unfold WH. rewrite <- sumN_scale. apply sumN_ext. intros x _. destruct (dotb n x i); cbn [sgn xorb]; lia. Qed.

Lemma WH_opp n psi i : WH n (fun j => (- psi j)%Z) i = (- WH n psi i)%Z.
Proof. unfold WH. rewrite <- sumN_opp. apply sumN_ext. intros x _. destruct (dotb n x i); cbn [sgn xorb]; lia. Qed.

(* the layer read at an index whose low bits are zero is the plain sum *)
Lemma WH_zero n psi i : lowz n i = true -> WH n psi i = sumN n (fun x => psi (setlow n i x)).
Proof. intros H. unfold WH. apply sumN_ext. intros x _. now rewrite dotb_lowz. Qed.

Lemma WH_zero_0 n psi : WH n psi 0 = sumN n psi.
Proof.
  rewrite WH_zero by apply lowz_0.
  apply sumN_ext. intros x Hx. now rewrite setlow_inr.
Qed.

Fixpoint hlayer (n : nat) (psi : N -> Z) : N -> Z :=
  match n with O => psi | S m => refH (N.of_nat m) (hlayer m psi) end.

Lemma refH_ext q psi phi i : (forall j, psi j = phi j) -> refH q psi i = refH q phi i.
Proof. intros H. unfold refH. now rewrite !H. Qed.

Lemma hlayer_ext n : forall psi phi i, (forall j, psi j = phi j) -> hlayer n psi i = hlayer n phi i.
Proof.
  induction n as [|n IH]; intros psi phi i H; cbn [hlayer]; [apply H|].
  apply refH_ext. intros j. now apply IH.
Qed.

Lemma of_nat_S_lt j n : j < N.of_nat (S n) <-> j < N.of_nat n \/ j = N.of_nat n.
Proof. lia. Qed.

Theorem hlayer_WH n : forall psi i, hlayer n psi i = WH n psi i.
Proof.
  induction n as [|n IH]; intros psi i.
  - cbn [hlayer]. unfold WH. cbn [sumN dotb sgn]. now rewrite setlow_0.
  - cbn [hlayer]. rewrite refH_sgn, !IH. unfold WH. cbn [sumN]. f_equal.
    + apply sumN_ext. intros x Hx. rewrite (dotb_S n x i false Hx), (setlow_S n i x false Hx).
      cbn [andb]. rewrite xorb_false_l. f_equal. apply dotb_ext; [reflexivity|]. intros j Hj. apply N.clearbit_neq. lia.
    + rewrite <- sumN_sgn. apply sumN_ext. intros x Hx.
      rewrite (dotb_S n x i true Hx), (setlow_S n i x true Hx), sgn_xorb. cbn [andb]. f_equal. f_equal.
      apply dotb_ext; [reflexivity|]. intros j Hj. apply N.setbit_neq. lia.
Qed.

Lemma char_sum n : forall t, sumN n (fun x => sgn (dotb n x t) 1%Z) = if lowz n t then pow2z n else 0%Z.
Proof.
  induction n as [|n IH]; intros t; [reflexivity|]. cbn [sumN lowz].
  rewrite (sumN_ext n _ (fun x => sgn (dotb n x t) 1%Z)) by (intros x Hx; rewrite (dotb_S n x t false Hx); cbn [andb]; now rewrite xorb_false_l).
  rewrite (sumN_ext n (fun x => sgn (dotb (S n) (N.setbit x (N.of_nat n)) t) 1%Z)
                      (fun x => sgn (N.testbit t (N.of_nat n)) (sgn (dotb n x t) 1%Z)))
    by (intros x Hx; now rewrite (dotb_S n x t true Hx), sgn_xorb).
  rewrite sumN_sgn, IH, pow2z_S. destruct (N.testbit t (N.of_nat n)), (lowz n t); cbn [sgn negb andb]; lia.
Qed.

Lemma lowz_lxor_eq n a b : inr n a -> inr n b -> lowz n (N.lxor a b) = true -> a = b.
Proof.
  intros Ha Hb H. rewrite lowz_spec in H. apply N.bits_inj. intros j.
  destruct (N.lt_ge_cases j (N.of_nat n)) as [Hj|Hj].
  - specialize (H j Hj). rewrite N.lxor_spec in H. now apply xorb_eq.
  - now rewrite (inr_high n a j Ha Hj), (inr_high n b j Hb Hj).
Qed.

Lemma lowz_lxor_refl n a : lowz n (N.lxor a a) = true.
Proof. apply lowz_spec. intros j _. now rewrite N.lxor_nilpotent, N.bits_0. Qed.

(* WH n (x |-> (-1)^(s.x)) y = 2^n if y = s, else 0   (s, y < 2^n) *)
Theorem WH_char n s y : inr n s -> inr n y ->
  WH n (fun x => sgn (dotb n s x) 1%Z) y = if N.eqb y s then pow2z n else 0%Z.
Proof.
  intros Hs Hy. unfold WH.
  rewrite (sumN_ext n _ (fun x => sgn (dotb n x (N.lxor y s)) 1%Z)).
  - rewrite char_sum. destruct (N.eqb_spec y s) as [->|Hne].
    + now rewrite lowz_lxor_refl.
    + destruct (lowz n (N.lxor y s)) eqn:E; [|reflexivity]. exfalso. apply Hne. now apply (lowz_lxor_eq n).
  - intros x Hx. rewrite dotb_lxor_r, sgn_xorb. f_equal. f_equal.
    rewrite dotb_comm. apply dotb_ext; [|reflexivity]. intros j Hj. rewrite setlow_bits.
    apply N.ltb_lt in Hj. now rewrite Hj.
Qed.

Lemma refH_invol q psi i : refH q (refH q psi) i = (2 * psi i)%Z.
Proof.
  rewrite refH_flipq, !(refH_flipq q psi), flipq_testbit, flipq_invol.
  destruct (N.testbit i q); cbn [negb]; lia.
Qed.

Lemma refH_comm a b psi i : a <> b -> refH a (refH b psi) i = refH b (refH a psi) i.
Proof.
  intros H. rewrite (refH_flipq a (refH b psi)), (refH_flipq b (refH a psi)), !(refH_flipq b psi), !(refH_flipq a psi).
  rewrite (flipq_testbit_other a i b), (flipq_testbit_other b i a), (flipq_comm a b) by congruence.
  destruct (N.testbit i a), (N.testbit i b); lia.
Qed.

Lemma hlayer_refH_comm n q : N.of_nat n <= q -> forall psi i, hlayer n (refH q psi) i = refH q (hlayer n psi) i.
Proof.
  intros Hq. induction n as [|n IH]; intros psi i; cbn [hlayer]; [reflexivity|].
  rewrite (refH_ext (N.of_nat n) _ (refH q (hlayer n psi))) by (intros j; apply IH; lia).
  apply refH_comm. lia.
Qed.

Lemma hlayer_scale n c psi i : hlayer n (fun j => (c * psi j)%Z) i = (c * hlayer n psi i)%Z.
Proof. rewrite !hlayer_WH. apply WH_scale. Qed.

Theorem hlayer_invol n : forall psi i, hlayer n (hlayer n psi) i = (pow2z n * psi i)%Z.
Proof.
  induction n as [|n IH]; intros psi i; cbn [hlayer]; [rewrite pow2z_0; lia|].
  rewrite (refH_ext (N.of_nat n) _ (refH (N.of_nat n) (hlayer n (hlayer n psi)))) by (intros j; apply hlayer_refH_comm; lia).
  rewrite refH_invol, IH, pow2z_S. lia.
Qed.

Theorem WH_invol n psi i : WH n (WH n psi) i = (pow2z n * psi i)%Z.
Proof.
  rewrite <- hlayer_WH. rewrite (hlayer_ext n _ (hlayer n psi)) by (intros j; symmetry; apply hlayer_WH).
  apply hlayer_invol.
Qed.

(* sign flip of the component whose low n bits are all zero
   ( = X^n ; multi-controlled Z ; X^n ) *)
Definition Z0 (n : nat) (phi : N -> Z) : N -> Z := fun i => if lowz n i then (- phi i)%Z else phi i.

Lemma lowz_ext n a b : (forall j, j < N.of_nat n -> N.testbit a j = N.testbit b j) -> lowz n a = lowz n b.
Proof.
  induction n as [|n IH]; intros H; cbn [lowz]; [reflexivity|]. rewrite H by lia. f_equal. apply IH. intros j Hj. apply H. lia.
Qed.

Lemma lowz_inr n x : inr n x -> lowz n x = N.eqb x 0.
Proof.
  intros Hx. destruct (N.eqb_spec x 0) as [->|Hne].
  - apply lowz_0.
  - destruct (lowz n x) eqn:E; [|reflexivity]. exfalso. apply Hne. apply N.bits_inj_0. intros j.
    rewrite lowz_spec in E. destruct (N.lt_ge_cases j (N.of_nat n)) as [Hj|Hj]; [now apply E|].
    now apply (inr_high n x).
Qed.

(* H^n ; Z0 ; H^n  =  2^n * identity  -  2 * (sum over the low n bits):
   divided by 2^n this is  psi - 2 * mean(psi), the inversion about the mean up to a global sign *)
Theorem diffuser_is_reflection n psi i :
  WH n (Z0 n (WH n psi)) i = (pow2z n * psi i - 2 * sumN n (fun x => psi (setlow n i x)))%Z.
Proof.
  set (phi := WH n psi).
  rewrite (WH_ext n (Z0 n phi) (fun j => (phi j + (-2) * (if lowz n j then phi j else 0))%Z))
    by (intros j; unfold Z0; destruct (lowz n j); lia).
  rewrite WH_add, WH_scale. unfold phi at 1. rewrite WH_invol.
  assert (E : WH n (fun j => if lowz n j then phi j else 0%Z) i = sumN n (fun x => psi (setlow n i x))).
  { unfold WH at 1.
    rewrite (sumN_ext n _ (fun x => if N.eqb x 0 then sgn (dotb n x i) (phi (setlow n i x)) else 0%Z)).
    - rewrite (sumN_single n 0 (fun x => sgn (dotb n x i) (phi (setlow n i x)))) by apply inr_0.
      rewrite dotb_comm, dotb_lowz by apply lowz_0. cbn [sgn].
      unfold phi. rewrite WH_zero.
      + apply sumN_ext. intros x _. now rewrite setlow_setlow.
      + apply lowz_spec. intros j Hj. rewrite setlow_bits. apply N.ltb_lt in Hj. rewrite Hj. apply N.bits_0.
    - intros x Hx. rewrite <- (lowz_inr n x Hx).
      rewrite (lowz_ext n (setlow n i x) x).
      + destruct (lowz n x); [reflexivity|apply sgn_0].
      + intros j Hj. rewrite setlow_bits. apply N.ltb_lt in Hj. now rewrite Hj. }
  rewrite E. lia.
Qed.
