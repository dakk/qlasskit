(* Prop_C06.v — "Predicates compile to xor-oracles |x>|y> -> |x>|y xor f(x)>":
   meaning of a passing verdict of c06_check, for every program. *)
From Coq Require Import List Bool NArith Arith.
From QV Require Import Bexp BexpTT Circ Compiled.
Import ListNotations.
Local Open Scope N_scope.

Theorem C06_checker_sound_and_complete : forall n nq c ds ret out,
  (n <= out < nq)%nat ->
  (c06_check n nq c ds ret out = Some 0 <->
   defs_avoid n ds = true /\ ret <> n /\ all_classical c = true /\ c06_holds n nq c ds ret out).
Proof. exact c06_check_correct. Qed.
Print Assumptions C06_checker_sound_and_complete.

(* for every input x AND both initial values y of the output qubit: inputs
   unchanged, output = y xor f(x), every other qubit back to zero *)
Theorem C06_holds_means : forall n nq c ds ret out,
  c06_holds n nq c ds ret out <->
  (forall x, x < pow2n n -> forall y : bool,
    exists f, fsim (basis6 n out x y) c = Some f /\
      forall q, (q < nq)%nat ->
        f q = if Nat.ltb q n then N.testbit x (N.of_nat q)
              else if Nat.eqb q out then xorb y (run_defs (asg x) ds ret) else false).
Proof. intros; reflexivity. Qed.
Print Assumptions C06_holds_means.

Example C06_example_pass :
  c06_check 2 3 [mkg KCCX [0;1;2]%nat None] [(3%nat, BAnd [BSym 0; BSym 1])] 3 2 = Some 0.
Proof. vm_compute. reflexivity. Qed.
(* a synthesis that is right for y = 0 but overwrites instead of xoring *)
Example C06_example_overwrite :
  exists d, c06_check 1 3 [mkg KCX [1;1]%nat None; mkg KCX [0;1]%nat None] [(2%nat, BSym 0)] 2 1 = Some d /\ d <> 0.
Proof. eexists. split; [vm_compute; reflexivity|discriminate]. Qed.
