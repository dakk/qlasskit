(* Prop_C02.v — "The circuit computes the function's boolean expressions".
   The property is decided per compiled program by c02_check, evaluated by
   vm_compute on the implementation's own gate list, expression list and qubit
   map; this file states what a passing verdict means, for EVERY program. *)
From Coq Require Import List Bool NArith Arith.
From QV Require Import Bexp BexpTT Circ Compiled M_Names P_Names.
Import ListNotations.
Local Open Scope N_scope.

(* c02_check returns `Some 0` exactly when the gate list is classical and, for
   every one of the 2^n basis inputs (all other qubits zero), each return symbol's
   qubit ends up holding the value of its expression list entry *)
Theorem C02_checker_sound_and_complete : forall n nq c ds rets,
  c02_check n nq c ds rets = Some 0 <-> all_classical c = true /\ c02_holds n c ds rets.
Proof. exact c02_check_correct. Qed.
Print Assumptions C02_checker_sound_and_complete.

(* bit x of a packed truth table is the value under the assignment read off at x:
   why one run on tables decides all 2^n inputs (a failing verdict names such an
   x: BexpTT.tt_diff_witness) *)
Theorem C02_truth_table_reads_one_input : forall m env e x,
  N.testbit m x = true ->
  N.testbit (tt_eval m env e) x = beval (fun i => N.testbit (env i) x) e.
Proof. exact tt_eval_spec. Qed.
Print Assumptions C02_truth_table_reads_one_input.

Theorem C02_table_simulation_is_reference_simulation : forall m x c tbl,
  N.testbit m x = true ->
  opt_rel (fun t' f' => forall q, proj x t' q = f' q) (sim (tt_alg m) tbl c) (fsim (proj x tbl) c).
Proof. intros m x c tbl H. now apply sim_tt_spec. Qed.
Print Assumptions C02_table_simulation_is_reference_simulation.

(* the name add_ancilla gives a new scratch qubit ("anc_r") is never the name of a program symbol
   (taken = the indices k for which "anc_k" is the name of a parameter or local), it is the first
   such index from the number of ancillas on, one always exists, and without a clash it is the
   name the synthesiser always used *)
Theorem C02_ancilla_name_is_fresh : forall k0 taken r, fresh_anc k0 taken = Some r ->
  ~ In r taken /\ (k0 <= r)%nat /\ forall j, (k0 <= j < r)%nat -> In j taken.
Proof.
  intros k0 taken r H. apply fresh_go_sound in H. destruct H as [H1 [H2 H3]].
  split; [intro Hin; apply memb_In in Hin; congruence|]. split; [exact H2|].
  intros j Hj. apply memb_In. apply H3. exact Hj.
Qed.
Print Assumptions C02_ancilla_name_is_fresh.

Theorem C02_ancilla_name_exists : forall k0 taken, exists r, fresh_anc k0 taken = Some r.
Proof. intros k0 taken. apply fresh_go_total, le_n. Qed.
Print Assumptions C02_ancilla_name_exists.

Theorem C02_ancilla_name_unchanged_without_clash : forall k0 taken, ~ In k0 taken -> fresh_anc k0 taken = Some k0.
Proof.
  intros k0 taken H. unfold fresh_anc. destruct (length taken); cbn [fresh_go];
    (destruct (memb k0 taken) eqn:E; [apply memb_In in E; contradiction|reflexivity]).
Qed.
Print Assumptions C02_ancilla_name_unchanged_without_clash.

Example C02_example_ancilla_name : fresh_anc 1 [1; 2; 5]%nat = Some 3%nat /\ fresh_anc 0 [1; 2]%nat = Some 0%nat.
Proof. split; vm_compute; reflexivity. Qed.

(* non-vacuity: a correct and an incorrect synthesis of _ret = a & b *)
Example C02_example_pass :
  c02_check 2 3 [mkg KCCX [0;1;2]%nat None] [(3%nat, BAnd [BSym 0; BSym 1])] [(3, 2)%nat] = Some 0.
Proof. vm_compute. reflexivity. Qed.
Example C02_example_fail :
  exists d, c02_check 2 3 [mkg KCX [0;2]%nat None] [(3%nat, BAnd [BSym 0; BSym 1])] [(3, 2)%nat] = Some d /\ d <> 0.
Proof. eexists. split; [vm_compute; reflexivity|discriminate]. Qed.
