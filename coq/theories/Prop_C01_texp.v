(* Prop_C01_texp.v — property C01, translator layer: the boolean expressions that
   translate_expression / translate_statement / translate_ast (as modelled in
   M_Texp.v, on top of the bit-vector methods of M_Types.v) derive for a
   NORMALISED function denote, under EVERY assignment of the symbols, the value the
   typed reference evaluator of the same language computes — for every expression
   of the language, every environment, all widths.  The general theorems are
   proved in P_Texp.v; the examples, the rejection cases and the refutations are checked here.

   Vocabulary (definitions in M_Texp.v / P_Texp.v):
     pexp, pstmt           the normalised language (what qlasskit.ast2ast produces)
     trans_exp num G e     the translator: Some (type, value tree) or None (= raises)
     eval_exp V e          the reference evaluator over values (bool | unsigned integer of a
                           width | fixed point as a scaled integer | char | tuple); None = the
                           documented semantics assigns no meaning (operands of different kinds, ...)
     den rho (t, tree)     decode t (the bits of the tree under the assignment rho)
     env_ok num rho G V    every name bound in G has a value in V, and its bit symbols evaluate
                           under rho to the bits of that value
     env_canon G           every binding carries the bit names its type gives (translate_argument)
     env_good G            no bound type has a sized component of fewer than 2 bits (ty_good; every
                           shipped sized type has at least 2 bits; a one-bit sized NAME would
                           evaluate to a bare Symbol).  Tuples of any length, the empty one
                           included, are fine
     wf_res r              the translated value is shaped as its type: a bool is a bare expression, a
                           sized value a flat list
     stmt_class s          a SYNTACTIC class of statements: the target is not read by the right-hand
                           side (fresh_in), or is read only as the unchanged branch of if-expressions
                           whose tests and other branches do not read it (selfite: `X if c else a`,
                           what an `if` statement becomes); Return: `_ret` is not read
     stmt_guard2, body_guard2   in the class, or seq_ok evaluated on the program (no definition of the
                           statement reads a symbol an earlier definition of it assigns).  A body
                           entirely in the class satisfies it (C01x_class_guard)
     ib_ty, ib_env G       bool or Qint; every name bound in G has such a type
     frag e                e is in the bool / integer fragment of C01x_trans_exp_total
     wf_args, wf_body      no argument is called _ret and every argument type is ty_good; no statement
                           assigns _ret
     args_encoded num rho args vs   the argument values are what rho spells on the argument bits
     lf_ret, lf_defs       of the translated function: the binding of _ret, the list of definitions
     numbered num ds       the definitions with their targets numbered by num
     enc, rho_of ones      an injective numbering of bit names; the assignment true exactly on ones
     forall a b, num a = num b -> a = b     the numbering of bit names is injective (enc is)
   A result None of the model is "the Python code raises". *)
From Coq Require Import List Bool NArith ZArith Arith.
From QV Require Import Bits Bexp BexpTT M_Codec Generated M_Types P_Types M_Texp P_Texp.
Import ListNotations.
Local Open Scope N_scope.

(* expressions: ALL constructors *)
Theorem C01x_trans_exp_sound : forall num rho G V e r v,
  env_ok num rho G V -> env_canon G ->
  trans_exp num G e = Some r -> eval_exp V e = Some v -> den rho r = Some v.
Proof. exact trans_exp_sound. Qed.
Print Assumptions C01x_trans_exp_sound.

(* the translated type is the type of the value, the value is shaped as its type, and its type
   has no one-bit sized component *)
Theorem C01x_trans_exp_type : forall num rho G V e r v,
  env_ok num rho G V -> env_canon G -> env_good G ->
  trans_exp num G e = Some r -> eval_exp V e = Some v ->
  type_of v = fst r /\ length (flat (snd r)) = ty_size (fst r) /\ wf_res r /\ ty_good (fst r) = true.
Proof. exact trans_exp_type. Qed.
Print Assumptions C01x_trans_exp_type.

(* a: Qint[2] = 3, b: Qint[4] = 9, c: bool; ((a if c else b) + 1) * 2 > b  and  (a, b)[...] *)
Definition exG : env := arg_env [(1%nat, TQint 2); (2%nat, TQint 4); (3%nat, TBool)].
Definition exV : venv := [(1%nat, VI 2 3); (2%nat, VI 4 9); (3%nat, VB true)].
Definition exnum : sname -> nat :=
  fun s => match s with [1; i] => i | [2; i] => 2 + i | [3] => 6 | _ => 99 end%nat.
Definition exrho : nat -> bool := fun k => N.testbit (3 + 4 * 9 + 64) (N.of_nat k).
Definition exe : pexp :=
  ECmp CoGt (EBin AoMul (EBin AoAdd (EIf (EName 3%nat) (EName 1%nat) (EName 2%nat)) (EConst (CInt 1))) (EConst (CInt 2)))
            (EName 2%nat).

Example C01x_trans_exp_ex :
  env_ok exnum exrho exG exV /\ env_canon exG
  /\ (exists r, trans_exp exnum exG exe = Some r /\ fst r = TBool)
  /\ eval_exp exV exe = Some (VB false)          (* ((3 widened to 4 bits) + 1) * 2 = 8 at 8 bits; 8 > 9 is false *)
  /\ option_map (den exrho) (trans_exp exnum exG exe) = Some (Some (VB false)).
Proof.
  split; [|split; [apply arg_env_canon|]].
  - apply (arg_env_ok exnum exrho [(1%nat, TQint 2); (2%nat, TQint 4); (3%nat, TBool)] [VI 2 3; VI 4 9; VB true]).
    repeat constructor.
  - repeat split; try (vm_compute; reflexivity).
    (* only the type of the translation is computed into the proof *)
    assert (H : option_map fst (trans_exp exnum exG exe) = Some TBool) by (vm_compute; reflexivity).
    destruct (trans_exp exnum exG exe) as [r|]; [|discriminate]. exists r. split; [reflexivity|now injection H].
Qed.

(* accepted expressions of the bool / integer fragment (names, and / or / not / ~, if-expressions,
   constants, comparisons, + - * & | ^, shifts by an integer constant; every bound name a bool or a
   Qint) HAVE a value, and denote it: soundness without the hypothesis on the evaluator *)
Theorem C01x_trans_exp_total : forall num rho G V e r,
  env_ok num rho G V -> env_canon G -> ib_env G -> frag e = true -> trans_exp num G e = Some r ->
  exists v, eval_exp V e = Some v /\ den rho r = Some v.
Proof. exact trans_exp_total. Qed.
Print Assumptions C01x_trans_exp_total.

Example C01x_trans_exp_total_ex : ib_env exG /\ frag exe = true.
Proof. split; [apply arg_env_ib|]; reflexivity. Qed.

(* ONE statement.  Hypotheses: an injective numbering; the environment invariants; a declared
   return type without one-bit sized components; stmt_guard2 = in the syntactic class, or seq_ok *)
Theorem C01x_trans_stmt_sound : forall num, (forall a b, num a = num b -> a = b) ->
  forall rho G V rt s ds G' V',
  env_ok num rho G V -> env_canon G -> env_good G -> ty_good rt = true ->
  stmt_guard2 num G rt s = true ->
  trans_stmt num G rt s = Some (ds, G') -> eval_stmt V rt s = Some V' ->
  env_ok num (run_defs rho (numbered num ds)) G' V' /\ env_canon G' /\ env_good G'.
Proof. exact trans_stmt_sound2. Qed.
Print Assumptions C01x_trans_stmt_sound.

(* the names an Assign / Return binds are the names translate_argument gives to the type, for EVERY
   value with a meaning and the shape of its type (one-element and empty tuples included) *)
Theorem C01x_binding_names : forall rho x r v, den rho r = Some v -> wf_res r ->
  map fst (decompose [x] (snd (regroup_value r))) = arg_names [x] (fst r).
Proof. exact regroup_canon. Qed.
Print Assumptions C01x_binding_names.

(* bit names are distinct and carry their base name: with an injective numbering the definitions of
   a statement assign distinct symbols and clobber no other binding *)
Theorem C01x_names_distinct : forall t base,
  NoDup (arg_names base t) /\ forall n, In n (arg_names base t) -> exists suf, n = base ++ suf.
Proof. exact (fun t base => conj (arg_names_nodup t base) (arg_names_prefix t base)). Qed.
Print Assumptions C01x_names_distinct.

(* the Return coercion to the declared type: zero-extension / low bits for integers *)
Theorem C01x_ret_coerce_sound : forall rho rt r v r' v',
  den rho r = Some v -> ret_coerce rt r = Some r' -> coerce_ret rt v = Some v' ->
  den rho r' = Some v' /\ fst r' = rt.
Proof.
  intros rho rt r v r' v' Hs Ht Hv. destruct (ret_coerce_semw rho rt r v r' v' Hs Ht Hv) as (S & _ & T). now split.
Qed.
Print Assumptions C01x_ret_coerce_sound.

Theorem C01x_trans_body_sound : forall num, (forall a b, num a = num b -> a = b) ->
  forall body rho G V rt ds G' V',
  env_ok num rho G V -> env_canon G -> env_good G -> ty_good rt = true ->
  body_guard2 num G rt body = true ->
  trans_body num G rt body = Some (ds, G') -> eval_body V rt body = Some V' ->
  env_ok num (run_defs rho (numbered num ds)) G' V' /\ env_canon G' /\ env_good G'.
Proof. exact trans_body_sound2. Qed.
Print Assumptions C01x_trans_body_sound.

(* a definition list that passes seq_ok / nodupb is evaluated in order as if simultaneously *)
Theorem C01x_run_defs_seq : forall ds rho, seq_ok ds = true -> nodupb (map fst ds) = true ->
  (forall j, ~ In j (map fst ds) -> run_defs rho ds j = rho j)
  /\ Forall (fun d => run_defs rho ds (fst d) = beval rho (snd d)) ds.
Proof. exact run_defs_seq. Qed.
Print Assumptions C01x_run_defs_seq.

(* a whole function: the list translate_ast returns *)
Theorem C01x_trans_fun_sound : forall num rho args rt body vs lf v,
  (forall a b, num a = num b -> a = b) ->
  trans_fun num args rt body = Some lf -> eval_fun args rt body vs = Some v ->
  wf_args args = true -> ty_good rt = true -> wf_body body = true ->
  body_guard2 num (arg_env args) rt body = true ->
  args_encoded num rho args vs ->
  lf_ret lf = (rt, arg_names [ret_id] rt) /\
  decode rt (map (fun s => run_defs rho (numbered num (lf_defs lf)) (num s)) (arg_names [ret_id] rt)) = Some v.
Proof. exact trans_fun_sound. Qed.
Print Assumptions C01x_trans_fun_sound.

(* every statement in the syntactic class: the guard of C01x_trans_fun_sound is not asked *)
Theorem C01x_trans_fun_sound_class : forall num rho args rt body vs lf v,
  (forall a b, num a = num b -> a = b) ->
  trans_fun num args rt body = Some lf -> eval_fun args rt body vs = Some v ->
  wf_args args = true -> ty_good rt = true -> wf_body body = true ->
  forallb stmt_class body = true ->
  args_encoded num rho args vs ->
  lf_ret lf = (rt, arg_names [ret_id] rt) /\
  decode rt (map (fun s => run_defs rho (numbered num (lf_defs lf)) (num s)) (arg_names [ret_id] rt)) = Some v.
Proof. exact trans_fun_sound_class. Qed.
Print Assumptions C01x_trans_fun_sound_class.

(* the class implies the side condition; so does seq_ok on every statement *)
Theorem C01x_class_guard : forall num body G rt,
  (forallb stmt_class body = true -> body_guard2 num G rt body = true)
  /\ (body_guard num G rt body = true -> body_guard2 num G rt body = true).
Proof. exact (fun num body G rt => conj (body_class_guard2 num body G rt) (body_guard_guard2 num body G rt)). Qed.
Print Assumptions C01x_class_guard.

Theorem C01x_enc_injective : forall a b, enc a = enc b -> a = b.
Proof. exact enc_inj. Qed.
Print Assumptions C01x_enc_injective.

(* def f(a: Qint[2], b: Qint[4], c: bool) -> Qint[4]:
       d = a                      ( 1 )
       d = d + 1 if c else d      ( ast2ast: __d = ...; d = __d if c else d )
       t = (d, c)
       return t[0] * 3 + b        ( Qint8 cropped to Qint4 ) *)
Definition exargs : list (ident * ty) := [(1%nat, TQint 2); (2%nat, TQint 4); (3%nat, TBool)].
Definition exbody : list pstmt :=
  [SAssign 4%nat (EName 1%nat);
   SAssign 5%nat (EIf (EName 3%nat) (EBin AoAdd (EName 4%nat) (EConst (CInt 1))) (EName 4%nat));
   SAssign 4%nat (EIf (EName 3%nat) (EName 5%nat) (EName 4%nat));
   SAssign 6%nat (ETuple [EName 4%nat; EName 3%nat]);
   SReturn (EBin AoAdd (EBin AoMul (ESub 6%nat [0%nat]) (EConst (CInt 3))) (EName 2%nat))].
(* a = 3, b = 9, c = True under the injective numbering enc *)
Definition exrho2 : nat -> bool := rho_of [[1; 0]; [1; 1]; [2; 0]; [2; 3]; [3]]%nat.

Example C01x_trans_fun_ex :
  wf_args exargs = true /\ ty_good (TQint 4) = true /\ wf_body exbody = true
  /\ forallb stmt_class exbody = true
  /\ args_encoded enc exrho2 exargs [VI 2 3; VI 4 9; VB true]
  /\ (exists lf, trans_fun enc exargs (TQint 4) exbody = Some lf /\ length (lf_defs lf) = 13%nat)
  /\ eval_fun exargs (TQint 4) exbody [VI 2 3; VI 4 9; VB true] = Some (VI 4 9).   (* (3+1 mod 4) * 3 + 9 *)
Proof.
  repeat split; try (vm_compute; reflexivity).
  - repeat constructor.
  - (* only the number of definitions is computed into the proof *)
    assert (H : option_map (fun lf => length (lf_defs lf)) (trans_fun enc exargs (TQint 4) exbody) = Some 13%nat)
      by (vm_compute; reflexivity).
    destruct (trans_fun enc exargs (TQint 4) exbody) as [lf|]; [|discriminate].
    exists lf. split; [reflexivity|now injection H].
Qed.

Theorem C01x_rejects_constants : forall num G,
  (forall z, (z < 0)%Z -> trans_exp num G (EConst (CInt z)) = None)
  /\ (forall x, trans_exp num G (EConst (CFloat true x)) = None)
  /\ (forall z, (65536 <= z)%Z -> trans_exp num G (EConst (CInt z)) = None).
Proof.
  intros num G. split; [|split; [reflexivity|exact (reject_big_int num G)]].
  intros z H. apply Z.ltb_lt in H. cbn [trans_exp trans_const]. now rewrite H.
Qed.
Print Assumptions C01x_rejects_constants.

Theorem C01x_rejects_names : forall num (G : env) x,
  (lookup G x = None -> forall p, trans_exp num G (EName x) = None /\ trans_exp num G (ESub x p) = None)
  /\ (forall w bv i q, lookup G x = Some (TQint w, bv) -> (w <= i)%nat -> trans_exp num G (ESub x (i :: q)) = None).
Proof.
  intros num G x. cbn [trans_exp]. unfold trans_sub. split.
  - intros H p. rewrite H. split; [reflexivity|now destruct p].
  - intros w bv i q H Hi. rewrite H. cbn [sub_type ty_size]. apply Nat.ltb_ge in Hi. now rewrite Hi.
Qed.
Print Assumptions C01x_rejects_names.

Theorem C01x_rejects_operators :
  (forall op a b, op <> CoEq -> op <> CoNe -> trans_cmp op (TBool, a) (TBool, b) = None)
  /\ (forall r, is_qtype (fst r) = true -> trans_un UoNot r = None)
  /\ (forall op sh l r,
        (is_qint (fst l) && is_qfixed (fst r)) || (is_qfixed (fst l) && is_qint (fst r)) = true ->
        op <> AoMul -> trans_bin op sh l r = None)
  /\ (forall op l r, op = AoShl \/ op = AoShr -> trans_bin op None l r = None)
  /\ (forall rt r, ty_eq (fst r) rt = false ->
        (is_qtype (fst r) && is_qtype rt = false \/ bit_size (fst r) = bit_size rt) -> ret_coerce rt r = None)
  /\ (forall num G rt, trans_exp num G ERaise = None /\ trans_stmt num G rt SRaise = None).
Proof.
  repeat split.
  - intros op a b H1 H2. unfold trans_cmp. cbn [fst snd]. destruct (leaf a); [|reflexivity]. cbn [obind].
    destruct (leaf b); [|reflexivity]. cbn [obind]. destruct op; try reflexivity; [now destruct H1|now destruct H2].
  - intros r H. unfold trans_un. now destruct (fst r).
  - intros op sh l r H Hop. unfold trans_bin. rewrite H.
    assert (B : is_bool (fst l) && is_bool (fst r) = false) by (destruct (fst l), (fst r); try reflexivity; discriminate).
    rewrite B. destruct op; try reflexivity. now destruct Hop.
  - intros op l r H. unfold trans_bin.
    destruct (is_bool (fst l) && is_bool (fst r));
      destruct ((is_qint (fst l) && is_qfixed (fst r)) || (is_qfixed (fst l) && is_qint (fst r)));
      destruct (is_qtype (fst l)); destruct (to_texp l); cbn [obind];
      destruct H as [-> | ->]; reflexivity.
  - intros rt r E H. unfold ret_coerce. rewrite E. destruct H as [H|H].
    + destruct (is_qtype (fst r)), (is_qtype rt); try discriminate; reflexivity.
    + rewrite H, Nat.ltb_irrefl, !andb_false_r. reflexivity.
Qed.
Print Assumptions C01x_rejects_operators.

(* a subscript may select ANY element, a whole tuple-typed one included (`a[0]` of
   a: Tuple[Tuple[bool, Qint[2]], bool]) *)
Theorem C01x_subscript_of_tuple_sound : forall num rho G V x p r v,
  env_ok num rho G V -> env_canon G ->
  trans_exp num G (ESub x p) = Some r -> eval_exp V (ESub x p) = Some v ->
  den rho r = Some v /\ type_of v = fst r.
Proof.
  intros num rho G V x p r v H1 H2 H4 H5. pose proof (trans_exp_sound num rho G V _ r v H1 H2 H4 H5) as H.
  split; [exact H|]. now apply decode_type in H.
Qed.
Print Assumptions C01x_subscript_of_tuple_sound.

(* ... an EMPTY one included: `u[0]` of u: Tuple[Tuple[()], bool] has no bits *)
Example C01x_subscript_of_empty_ex :
  let args := [(1%nat, TTuple [TTuple []; TBool])] in
  env_ok enc (fun _ => true) (arg_env args) [(1%nat, VT [VT []; VB true])] /\ env_canon (arg_env args)
  /\ trans_exp enc (arg_env args) (ESub 1%nat [0%nat]) = Some (TTuple [], Nd [])
  /\ eval_exp [(1%nat, VT [VT []; VB true])] (ESub 1%nat [0%nat]) = Some (VT [])
  /\ den (fun _ => true) (TTuple [], Nd []) = Some (VT []).
Proof.
  intros args. refine (conj _ (conj (arg_env_canon args) (conj eq_refl (conj eq_refl eq_refl)))).
  apply (arg_env_ok enc (fun _ => true) args [VT [VT []; VB true]]). constructor; [reflexivity|constructor].
Qed.

Example C01x_subscript_of_tuple_ex :
  env_ok ex_sub_num ex_sub_rho ex_sub_G ex_sub_V /\ env_canon ex_sub_G
  /\ eval_exp ex_sub_V (ESub 1%nat [0%nat]) = Some (VT [VB true; VI 2 1])
  /\ option_map (den ex_sub_rho) (trans_exp ex_sub_num ex_sub_G (ESub 1%nat [0%nat])) = Some (Some (VT [VB true; VI 2 1])).
Proof.
  destruct ex_sub_env as (A & B). repeat split; try assumption; vm_compute; reflexivity.
Qed.

(* `d = a; return d[1]` with a: Tuple[Qint[2], bool]: the copy is named d.0.0, d.0.1, d.1 and the
   function returns a[1] for EVERY argument value *)
Theorem C01x_tuple_copy_sound : forall rho vs v,
  args_encoded enc rho ex_copy_args vs -> eval_fun ex_copy_args TBool ex_copy_body vs = Some v ->
  exists lf, trans_fun enc ex_copy_args TBool ex_copy_body = Some lf /\
    map fst (lf_defs lf) = [[2; 0; 0]; [2; 0; 1]; [2; 1]; [0]]%nat /\
    decode TBool (map (fun s => run_defs rho (numbered enc (lf_defs lf)) (enc s))
                      (arg_names [ret_id] TBool)) = Some v.
Proof.
  intros rho vs v Henc Hev.
  assert (H : option_map (fun lf => map fst (lf_defs lf)) (trans_fun enc ex_copy_args TBool ex_copy_body)
              = Some [[2; 0; 0]; [2; 0; 1]; [2; 1]; [0]]%nat) by (vm_compute; reflexivity).
  destruct (trans_fun enc ex_copy_args TBool ex_copy_body) as [lf|] eqn:E; [|discriminate].
  exists lf. split; [reflexivity|]. split.
  - now injection H.
  - refine (proj2 (trans_fun_sound enc rho ex_copy_args TBool ex_copy_body vs lf v enc_inj E Hev _ _ _ _ Henc));
      vm_compute; reflexivity.
Qed.
Print Assumptions C01x_tuple_copy_sound.

Example C01x_tuple_copy_ex :
  args_encoded enc (rho_of [[1; 0; 1]]%nat) ex_copy_args [VT [VI 2 2; VB false]]
  /\ eval_fun ex_copy_args TBool ex_copy_body [VT [VI 2 2; VB false]] = Some (VB false).
Proof. split; [constructor; [vm_compute; reflexivity|constructor]|vm_compute; reflexivity]. Qed.

(* outside the syntactic class the side condition seq_ok is needed: on the
   UN-normalised `a = a + 1; return a` (a: Qint[2]) it emits a.0 := ~a.0; a.1 := a.0 ^ a.1 and the
   list run in order gives 0 for a = 1.  (ast2ast never hands this over: it goes through `__a`.) *)
Theorem C01x_seq_ok_needed_refuted :
  exists rho vs lf v,
    trans_fun enc ex_self_args (TQint 2) ex_self_body = Some lf /\
    eval_fun ex_self_args (TQint 2) ex_self_body vs = Some v /\
    wf_args ex_self_args = true /\ ty_good (TQint 2) = true /\ wf_body ex_self_body = true /\
    args_encoded enc rho ex_self_args vs /\
    body_guard2 enc (arg_env ex_self_args) (TQint 2) ex_self_body = false /\
    decode (TQint 2) (map (fun s => run_defs rho (numbered enc (lf_defs lf)) (enc s)) (arg_names [ret_id] (TQint 2)))
      <> Some v.
Proof.
  exists (rho_of [[1; 0]]%nat), [VI 2 1]. do 2 eexists.
  refine (conj _ (conj _ (conj _ (conj _ (conj _ (conj _ (conj _ _))))))); try (vm_compute; reflexivity).
  - constructor; [vm_compute; reflexivity|constructor].
  - vm_compute. discriminate.
Qed.
Print Assumptions C01x_seq_ok_needed_refuted.

(* "every accepted program has a meaning" is false: operands of different kinds are combined on
   their raw bit lists (Qint ^ Qchar); a value of another kind is cropped to the declared return
   type (`return 'a'` where Qint[2] is declared) *)
Theorem C01x_accepted_without_meaning_refuted :
  (exists num rho G V e r, env_ok num rho G V /\ env_canon G /\
     trans_exp num G e = Some r /\ eval_exp V e = None)
  /\ (exists num args rt body lf, trans_fun num args rt body = Some lf /\
        forall vs, eval_fun args rt body vs = None).
Proof.
  split.
  - set (args := [(1%nat, TQint 8); (2%nat, TQchar)]).
    set (num := fun s : sname => match s with [1; i] => i | [2; i] => 8 + i | _ => 99 end%nat).
    exists num, (fun _ => false), (arg_env args), [(1%nat, VI 8 0); (2%nat, VC 0)],
           (EBin AoXor (EName 1%nat) (EName 2%nat)). eexists.
    refine (conj _ (conj (arg_env_canon args) (conj _ eq_refl))).
    + apply (arg_env_ok num (fun _ => false) args [VI 8 0; VC 0]).
      constructor; [vm_compute; reflexivity|]. constructor; [vm_compute; reflexivity|constructor].
    + vm_compute. reflexivity.
  - exists (fun _ => 0%nat), [(1%nat, TQint 2)], (TQint 2), [SReturn (EConst (CStr [97]))]. eexists.
    split; [vm_compute; reflexivity|]. intros vs. unfold eval_fun.
    destruct (negb _); [reflexivity|]. destruct (negb _); reflexivity.
Qed.
Print Assumptions C01x_accepted_without_meaning_refuted.
