(* P_BindAst.v — proofs about M_BindAst (UnboundQlassf.bind on concrete syntax).

   The bound body is the unbound body behind the injected assignments `k = v`, so running it is
   running the unbound body from the environment those assignments produce.  The reference
   evaluator reads its environment only pointwise (exec_eqenv): hence calling the bound function
   with the remaining actuals is calling the unbound one with every parameter set to its bound
   value, and the order of the keywords is irrelevant. *)
From Coq Require Import List Bool NArith ZArith Arith String Lia Permutation.
From QV Require Import M_A2A P_A2A M_BindAst.
Import ListNotations.
Local Open Scope string_scope.
Local Open Scope list_scope.

Section PvInd.
  Variable P : pv -> Prop.
  Hypothesis HCst : forall c, P (PCst c).
  Hypothesis HSeq : forall l, Forall P l -> P (PSeq l).
  Fixpoint pv_ind2 (w : pv) : P w :=
    match w with
    | PCst c => HCst c
    | PSeq l => HSeq l ((fix go (l : list pv) : Forall P l :=
                           match l with [] => Forall_nil P | x :: r => Forall_cons x (pv_ind2 x) (go r) end) l)
    end.
End PvInd.

Lemma all_some_map_mono {A B} (f g : A -> option B) l :
  Forall (fun a => forall b, f a = Some b -> g a = Some b) l ->
  forall bs, all_some (map f l) = Some bs -> all_some (map g l) = Some bs.
Proof.
  induction 1 as [|a l Ha _ IH]; intros bs H; cbn [map all_some] in *; [exact H|].
  destruct (f a) as [b|]; [|discriminate]. rewrite (Ha b eq_refl).
  destruct (all_some (map f l)) as [r|]; [|discriminate]. now rewrite (IH r eq_refl).
Qed.

Lemma eval_to_val ext rho w : forall v, val_of_pv w = Some v -> eval ext rho (to_val w) = Some v.
Proof.
  induction w as [c|l IH] using pv_ind2; intros v H; cbn [val_of_pv to_val M_A2A.eval] in *; [exact H|].
  destruct (all_some (map val_of_pv l)) as [vs|] eqn:El; [|discriminate].
  now rewrite map_map, (all_some_map_mono _ (fun w => eval ext rho (to_val w)) l IH vs El).
Qed.

Lemma exec_injected ext kw : forall body rho rho',
  run_injected kw rho = Some rho' ->
  exec_list ext (map inject kw ++ body) rho = exec_list ext body rho'.
Proof.
  induction kw as [|[k w] r IH]; intros body rho rho' H; simpl in H.
  - inversion H; subst. reflexivity.
  - destruct (val_of_pv w) as [v|] eqn:Ev; try discriminate.
    unfold exec_list in *. cbn [map app exec_list_with inject fst snd M_A2A.exec].
    rewrite (eval_to_val ext rho w v Ev). apply IH. exact H.
Qed.

Lemma mem_str_In x l : mem_str x l = true <-> List.In x l.
Proof.
  unfold mem_str. rewrite existsb_exists. split.
  - intros (y & Iy & Ey). apply String.eqb_eq in Ey. now subst.
  - intros I. exists x. split; [exact I|apply String.eqb_refl].
Qed.

Lemma bind_ast_spec f kw : bind_ast f kw =
  if Nat.eqb (List.length kw) (List.length (parameters f)) &&
     forallb (fun kv => mem_str (fst kv) (parameters f)) kw
  then Ok (mkfun (remaining_args f) (f_ret f) (map inject kw ++ f_body f)) else Raise.
Proof. unfold bind_ast. destruct (Nat.eqb _ _); [destruct (forallb _ _)|]; reflexivity. Qed.

Lemma bind_ast_ok f kw f' : bind_ast f kw = Ok f' ->
  List.length kw = List.length (parameters f) /\
  (forall kv, List.In kv kw -> List.In (fst kv) (parameters f)) /\
  f' = mkfun (remaining_args f) (f_ret f) (map inject kw ++ f_body f).
Proof.
  rewrite bind_ast_spec. destruct (_ && _) eqn:E; [|discriminate]. intros [= <-].
  apply andb_true_iff in E as [L F]. apply Nat.eqb_eq in L. rewrite forallb_forall in F.
  repeat split; [exact L|]. intros kv I. apply mem_str_In, F, I.
Qed.

Theorem bind_ast_runs ext f kw f' rho rho' :
  bind_ast f kw = Ok f' -> run_injected kw rho = Some rho' ->
  run ext (f_body f') rho = run ext (f_body f) rho'.
Proof.
  intros B R. apply bind_ast_ok in B as (_ & _ & ->). unfold run. cbn [f_body].
  fold (exec_list ext (map inject kw ++ f_body f) rho).
  now rewrite (exec_injected ext kw (f_body f) rho rho' R).
Qed.

Definition eqenv (r r' : env) : Prop := forall x, r x = r' x.

Lemma eqenv_upd r r' x v : eqenv r r' -> eqenv (upd r x v) (upd r' x v).
Proof. intros H y. unfold upd. destruct (String.eqb x y); auto. Qed.

Lemma eqenv_refl r : eqenv r r. Proof. intro; reflexivity. Qed.
Lemma eqenv_trans a b c : eqenv a b -> eqenv b c -> eqenv a c.
Proof. intros H1 H2 x. now rewrite H1. Qed.
Lemma eqenv_sym a b : eqenv a b -> eqenv b a.
Proof. intros H x. now rewrite H. Qed.

(* P_A2A.Forall2_diag without the boolean guard *)
Lemma Forall_Forall2_same {A} (R : A -> A -> Prop) l : Forall (fun a => R a a) l -> Forall2 R l l.
Proof. induction 1; constructor; auto. Qed.

Lemma eval_eqenv ext r r' e : eqenv r r' -> eval ext r e = eval ext r' e.
Proof.
  intro Q. induction e as [x|c|e IHe|op l IH|op a b IHa IHb|op a IHa|op a b IHa IHb|c t f IHc IHt IHf|l IH|l IH|v s IHv IHs|f args IH]
    using exp_ind2; cbn [M_A2A.eval].
  - apply Q.
  - reflexivity.
  - exact IHe.
  - apply boolop_with_ext. now apply Forall_Forall2_same.
  - now rewrite IHa, IHb.
  - now rewrite IHa.
  - now rewrite IHa, IHb.
  - now rewrite IHc, IHt, IHf.
  - f_equal. apply all_some_map_ext. now apply Forall_Forall2_same.
  - f_equal. apply all_some_map_ext. now apply Forall_Forall2_same.
  - now rewrite IHv, IHs.
  - now rewrite (all_some_map_ext (eval ext r) (eval ext r') args args (Forall_Forall2_same _ _ IH)).
Qed.

Definition oeq (o o' : outcome) : Prop :=
  match o, o' with
  | Some (r, v), Some (r', v') => eqenv r r' /\ v = v'
  | None, None => True
  | _, _ => False
  end.

Lemma oeq_refl_env r r' v : eqenv r r' -> oeq (Some (r, v)) (Some (r', v)).
Proof. simpl; auto. Qed.

Definition respects_eqenv (f : env -> outcome) : Prop := forall r r', eqenv r r' -> oeq (f r) (f r').

(* a statement that returned ends the sequence; otherwise it goes on from the new environment *)
Lemma oeq_seq (o o' : outcome) (k k' : env -> outcome) :
  oeq o o' -> (forall r r', eqenv r r' -> oeq (k r) (k' r')) ->
  oeq (match o with Some (r, None) => k r | Some (r, Some v) => Some (r, Some v) | None => None end)
      (match o' with Some (r, None) => k' r | Some (r, Some v) => Some (r, Some v) | None => None end).
Proof.
  intros H K. destruct o as [[r [v|]]|], o' as [[r' [v'|]]|]; cbn [oeq] in H |- *; try tauto;
    try (destruct H; discriminate).
  exact (K r r' (proj1 H)).
Qed.

Lemma exec_list_with_eqenv (ex : stmt -> env -> outcome) l :
  Forall (fun s => respects_eqenv (ex s)) l -> respects_eqenv (exec_list_with ex l).
Proof.
  induction 1 as [|s l Hs _ IH]; intros r r' Q; cbn [exec_list_with].
  - now apply oeq_refl_env.
  - exact (oeq_seq _ _ _ _ (Hs r r' Q) IH).
Qed.

Lemma loop_with_eqenv body x vs : respects_eqenv body -> respects_eqenv (loop_with body x vs).
Proof.
  intro B. induction vs as [|v vs IH]; intros r r' Q; cbn [loop_with].
  - now apply oeq_refl_env.
  - exact (oeq_seq _ _ _ _ (B _ _ (eqenv_upd _ _ x v Q)) IH).
Qed.

Lemma assign_names_eqenv l : forall vs r r', eqenv r r' ->
  match assign_names l vs r, assign_names l vs r' with
  | Some a, Some b => eqenv a b
  | None, None => True
  | _, _ => False
  end.
Proof.
  induction l as [|e l IH]; intros vs r r' Q; destruct vs as [|v vs]; simpl; auto.
  - destruct e; auto.
  - destruct e; auto. apply IH. now apply eqenv_upd.
Qed.

Lemma evals_eqenv ext r r' l : eqenv r r' -> all_some (map (eval ext r) l) = all_some (map (eval ext r') l).
Proof. intro Q. apply all_some_map_ext, Forall_Forall2_same, Forall_forall. intros e _. now apply eval_eqenv. Qed.

Lemma iter_vals_eqenv ext r r' it : eqenv r r' -> iter_vals ext r it = iter_vals ext r' it.
Proof.
  intro Q. unfold iter_vals. destruct (is_call "range" it) as [args|].
  - now rewrite (evals_eqenv ext r r' args Q).
  - now rewrite (eval_eqenv ext r r' it Q).
Qed.

Lemma exec_eqenv ext s : respects_eqenv (exec ext s).
Proof.
  induction s as [t e|x op e|c b o Hb Ho|x it b fo Hb Hfo|e|e] using stmt_ind2; intros r r' Q; cbn [M_A2A.exec].
  - destruct t as [x|l]; rewrite (eval_eqenv ext r r' e Q).
    + destruct (eval ext r' e); simpl; auto using eqenv_upd.
    + destruct (eval ext r' e) as [[| |vs]|]; simpl; auto.
      pose proof (assign_names_eqenv l vs r r' Q) as A.
      destruct (assign_names l vs r), (assign_names l vs r'); simpl; tauto.
  - rewrite (eval_eqenv ext r r' e Q), (Q x).
    destruct (r' x); simpl; auto. destruct (eval ext r' e); simpl; auto.
    destruct (binop_val op v v0); simpl; auto using eqenv_upd.
  - rewrite (eval_eqenv ext r r' c Q). destruct (eval ext r' c) as [v|]; simpl; auto.
    destruct (truthy v); apply exec_list_with_eqenv; auto.
  - rewrite (iter_vals_eqenv ext r r' it Q). destruct (iter_vals ext r' it) as [vs|]; simpl; auto.
    apply oeq_seq; [|exact (exec_list_with_eqenv _ _ Hfo)].
    exact (loop_with_eqenv _ x vs (exec_list_with_eqenv _ _ Hb) r r' Q).
  - rewrite (eval_eqenv ext r r' e Q). destruct (eval ext r' e); simpl; auto.
  - destruct e as [e|]; simpl; auto.
    destruct (is_call "print" e) as [args|].
    + rewrite (evals_eqenv ext r r' args Q). destruct (all_some (map (eval ext r') args)); simpl; auto.
    + rewrite (eval_eqenv ext r r' e Q). destruct (eval ext r' e); simpl; auto.
Qed.

Theorem run_eqenv ext body r r' : eqenv r r' -> run ext body r = run ext body r'.
Proof.
  intro Q. unfold run, exec_list.
  pose proof (exec_list_with_eqenv (exec ext) body
                (proj2 (Forall_forall _ _) (fun s _ => exec_eqenv ext s)) r r' Q) as H.
  destruct (exec_list_with (exec ext) body r) as [[r1 [v|]]|],
           (exec_list_with (exec ext) body r') as [[r1' [v'|]]|]; cbn [oeq] in H; try tauto;
    destruct H as (_ & E); congruence.
Qed.

Fixpoint kw_vals (kw : list (string * pv)) : option (list (string * val)) :=
  match kw with
  | [] => Some []
  | (k, w) :: r =>
      match val_of_pv w, kw_vals r with
      | Some v, Some l => Some ((k, v) :: l)
      | _, _ => None
      end
  end.

Definition is_param_arg (args : list (string * option exp)) (x : string) : bool :=
  existsb (fun a => String.eqb (fst a) x && is_param_ann (snd a)) args.

Lemma is_param_arg_cons y a r x :
  is_param_arg ((y, a) :: r) x = String.eqb y x && is_param_ann a || is_param_arg r x.
Proof. reflexivity. Qed.

Lemma assoc_notin {A} (l : list (string * A)) x : ~ List.In x (map fst l) -> assoc l x = None.
Proof.
  induction l as [|[k a] r IH]; simpl; auto. intro N.
  destruct (String.eqb k x) eqn:E. { apply String.eqb_eq in E. tauto. } apply IH. tauto.
Qed.

Lemma combine_fst_in {A} (fs : list string) (vs : list A) x : List.In x (map fst (combine fs vs)) -> List.In x fs.
Proof.
  revert vs. induction fs as [|f fs IH]; intros vs; destruct vs as [|v vs]; simpl; try tauto. intros [H|H]; eauto.
Qed.

Lemma call_env_get fs : forall vs rho x, NoDup fs ->
  call_env fs vs rho x = match assoc (combine fs vs) x with Some v => Some v | None => rho x end.
Proof.
  induction fs as [|f fs IH]; intros [|v vs] rho x N; simpl; auto.
  inversion N as [|? ? Nf N']; subst. rewrite (IH vs (upd rho f v) x N'). unfold upd.
  destruct (String.eqb f x) eqn:E.
  - apply String.eqb_eq in E. subst x.
    rewrite assoc_notin; auto. intro H. apply Nf. eapply combine_fst_in; eauto.
  - reflexivity.
Qed.

Lemma kw_vals_keys kw : forall kwv, kw_vals kw = Some kwv -> map fst kwv = map fst kw.
Proof.
  induction kw as [|[k w] r IH]; intros kwv H; simpl in H.
  - inversion H; reflexivity.
  - destruct (val_of_pv w); try discriminate. destruct (kw_vals r) as [l|]; try discriminate.
    inversion H; subst. simpl. now rewrite (IH l eq_refl).
Qed.

Lemma run_injected_get kw : forall kwv rho, kw_vals kw = Some kwv -> NoDup (map fst kw) ->
  exists rho', run_injected kw rho = Some rho' /\
               forall x, rho' x = match assoc kwv x with Some v => Some v | None => rho x end.
Proof.
  induction kw as [|[k w] r IH]; intros kwv rho H N; simpl in *.
  - inversion H; subst. exists rho. split; auto.
  - destruct (val_of_pv w) as [v|]; try discriminate. destruct (kw_vals r) as [l|] eqn:El; try discriminate.
    inversion H; subst. inversion N as [|? ? Nk N']; subst.
    destruct (IH l (upd rho k v) eq_refl N') as (rho' & R & G). exists rho'. split; auto.
    intro x. rewrite G. simpl. unfold upd. destruct (String.eqb k x) eqn:E; auto.
    apply String.eqb_eq in E. subst x. rewrite assoc_notin; auto.
    now rewrite (kw_vals_keys r l El).
Qed.

Lemma is_param_arg_notin args x : ~ List.In x (map fst args) -> is_param_arg args x = false.
Proof.
  induction args as [|[y a] r IH]; simpl; auto. intro N.
  destruct (String.eqb y x) eqn:E. { apply String.eqb_eq in E. tauto. } simpl. apply IH. tauto.
Qed.

(* the unbound call's environment is the bound call's, overridden by the bound values; a bound
   name [x] has to be a parameter argument: a bound name that is an ordinary argument would
   shadow the actual *)
Lemma merge_get args : forall kwv actuals all x,
  merge_actuals args kwv actuals = Some all -> NoDup (map fst args) ->
  (assoc kwv x <> None -> is_param_arg args x = true) ->
  assoc (combine (map fst args) all) x =
  match assoc kwv x with
  | Some v => Some v
  | None => assoc (combine (map fst (filter (fun a => negb (is_param_ann (snd a))) args)) actuals) x
  end.
Proof.
  induction args as [|[y a] r IH]; intros kwv actuals all x H N K; cbn [merge_actuals] in H.
  - destruct actuals; [|discriminate]. injection H as <-.
    destruct (assoc kwv x); [discriminate K; discriminate|reflexivity].
  - cbn [map fst] in N. apply NoDup_cons_iff in N as [Ny N'].
    rewrite is_param_arg_cons in K.
    cbn [filter snd map fst]. destruct (is_param_ann a); cbn [negb].
    + destruct (assoc kwv y) as [v|] eqn:Ay; [|discriminate].
      destruct (merge_actuals r kwv actuals) as [all'|] eqn:M; [|discriminate]. injection H as <-.
      cbn [combine assoc]. destruct (String.eqb y x) eqn:E.
      * apply String.eqb_eq in E as <-. now rewrite Ay.
      * exact (IH kwv actuals all' x M N' K).
    + destruct actuals as [|v vs]; [discriminate|].
      destruct (merge_actuals r kwv vs) as [all'|] eqn:M; [|discriminate]. injection H as <-.
      cbn [map fst combine assoc]. destruct (String.eqb y x) eqn:E.
      * apply String.eqb_eq in E as <-. rewrite (is_param_arg_notin r y Ny) in K.
        destruct (assoc kwv y); [discriminate K; discriminate|reflexivity].
      * exact (IH kwv vs all' x M N' K).
Qed.

Lemma is_param_sub_ann a : is_param_sub a = true -> is_param_ann a = true.
Proof. destruct a as [e|]; simpl; auto. destruct e; simpl; auto; try discriminate. Qed.

Lemma parameter_is_param_arg f k : List.In k (parameters f) -> is_param_arg (f_args f) k = true.
Proof.
  unfold parameters. intro H. apply in_map_iff in H as ([z a] & <- & Iz). apply filter_In in Iz as [Iz Pz].
  apply existsb_exists. exists (z, a). split; [exact Iz|]. cbn [fst snd] in *.
  rewrite String.eqb_refl. now apply is_param_sub_ann.
Qed.

Lemma NoDup_map_filter {A B} (f : A -> B) (p : A -> bool) l : NoDup (map f l) -> NoDup (map f (filter p l)).
Proof.
  induction l as [|a l IH]; simpl; auto. intro N. inversion N as [|? ? Na N']; subst.
  destruct (p a); simpl; auto. constructor; auto. intro H. apply Na.
  apply in_map_iff in H. destruct H as (b & Eb & Ib). apply filter_In in Ib. apply in_map_iff. exists b. tauto.
Qed.

(* bind accepted the keywords: each names a parameter *)
Lemma bound_key_is_param f kw f' kwv x :
  bind_ast f kw = Ok f' -> kw_vals kw = Some kwv -> assoc kwv x <> None -> is_param_arg (f_args f) x = true.
Proof.
  intros B V Ax. apply bind_ast_ok in B as (_ & F & _).
  destruct (assoc kwv x) as [v|] eqn:E; [clear Ax|congruence].
  apply assoc_in in E. rewrite (kw_vals_keys kw kwv V) in E.
  apply in_map_iff in E as (kv & <- & Ik). exact (parameter_is_param_arg f _ (F kv Ik)).
Qed.

(* the call environments are built on any environment [rho0] (globals; C08a: the empty one); Python
   grants both NoDups: a repeated argument name is a SyntaxError, the keywords are a dict *)
Theorem bind_ast_specialises_on rho0 ext f kw f' kwv actuals all :
  bind_ast f kw = Ok f' ->
  NoDup (map fst (f_args f)) -> NoDup (map fst kw) ->
  kw_vals kw = Some kwv ->
  merge_actuals (f_args f) kwv actuals = Some all ->
  run ext (f_body f') (call_env (map fst (f_args f')) actuals rho0)
  = run ext (f_body f) (call_env (map fst (f_args f)) all rho0).
Proof.
  intros B Na Nk V M.
  assert (Ea : f_args f' = remaining_args f) by (now apply bind_ast_ok in B as (_ & _ & ->)).
  set (rho1 := call_env (map fst (f_args f')) actuals rho0).
  destruct (run_injected_get kw kwv rho1 V Nk) as (rho1' & R & G).
  rewrite (bind_ast_runs ext f kw f' rho1 rho1' B R).
  apply run_eqenv. intro x. rewrite G, (call_env_get _ all rho0 x Na).
  rewrite (merge_get _ _ _ _ x M Na (bound_key_is_param f kw f' kwv x B V)).
  destruct (assoc kwv x); [reflexivity|].
  unfold rho1. rewrite Ea. apply call_env_get. now apply NoDup_map_filter.
Qed.

(* towards the irrelevance of the keyword order: permuted keywords with distinct keys are injected
   into pointwise equal environments (run_injected_perm), and are accepted alike (forallb_perm) *)
Definition oenv_eq (a b : option env) : Prop :=
  match a, b with Some x, Some y => eqenv x y | None, None => True | _, _ => False end.

Lemma run_injected_eqenv kw : forall r r', eqenv r r' -> oenv_eq (run_injected kw r) (run_injected kw r').
Proof.
  induction kw as [|[k w] l IH]; intros r r' Q; simpl; auto.
  destruct (val_of_pv w); simpl; auto. apply IH. now apply eqenv_upd.
Qed.

Lemma oenv_eq_trans a b c : oenv_eq a b -> oenv_eq b c -> oenv_eq a c.
Proof. destruct a, b, c; simpl; try tauto. apply eqenv_trans. Qed.

Lemma run_injected_perm kw kw' : Permutation kw kw' -> NoDup (map fst kw) ->
  forall rho, oenv_eq (run_injected kw rho) (run_injected kw' rho).
Proof.
  induction 1 as [|[k w] l l' P IH|[k1 w1] [k2 w2] l|l1 l2 l3 P1 IH1 P2 IH2]; intros N rho; simpl in *.
  - apply eqenv_refl.
  - inversion N; subst. destruct (val_of_pv w); simpl; auto.
  - inversion N as [|? ? N1 N2]; subst. simpl in N1.
    destruct (val_of_pv w1) as [v1|], (val_of_pv w2) as [v2|]; simpl; auto.
    apply run_injected_eqenv. intro x. unfold upd.
    destruct (String.eqb k1 x) eqn:E1, (String.eqb k2 x) eqn:E2; auto.
    apply String.eqb_eq in E1, E2. subst. tauto.
  - apply (oenv_eq_trans _ (run_injected l2 rho)); [now apply IH1|apply IH2].
    eapply Permutation_NoDup; [|exact N]. now apply Permutation_map.
Qed.

Lemma forallb_perm {A} (p : A -> bool) l l' : Permutation l l' -> forallb p l = forallb p l'.
Proof.
  induction 1; simpl; auto; try congruence.
  destruct (p x), (p y); reflexivity.
Qed.
