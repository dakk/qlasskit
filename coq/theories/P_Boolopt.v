(* P_Boolopt.v — theorems about the model of the boolean optimizer (M_Boolopt.v):
   every transformer preserves the value of every expression under every
   assignment; merge_expressions, apply_cse and the shipped profiles (and every
   prefix of them) preserve the function assigned to every _ret symbol, under
   the stated contracts of the sympy calls; no free symbol is introduced and no
   _ret symbol is lost.  Where the statement at full strength is false of the
   model (apply_cse before fix 0ecd3ac, and defaultOptimizer with it, on lists
   in which an expression reads a symbol the list defines) the witness is
   defined here (w_cse, w_ds; used by the *_refuted theorems of Prop_C04) and
   apply_cse_partial states the exact guard; of the shipped, guarded apply_cse
   the statement holds at full strength (apply_cse_guarded_preserves).

   Every transformer is SympyTransformer's default visitor except at the
   clauses its class overrides.  The default visitor at one node is [rebuild];
   what it preserves is proved once (rebuild_beval, rebuild_reads, rebuild_nf,
   rebuild_fixed), and the proof about a transformer is an induction that
   quotes these at the default clauses and argues only at the overridden ones. *)
From Coq Require Import List Bool Arith Lia.
From QV Require Import Bexp BexpTT M_Boolopt.
Import ListNotations.

Lemma args_sat_impl (Q R : bexp -> Prop) e : (forall x, Q x -> R x) -> args_sat Q e -> args_sat R e.
Proof.
  intros H. destruct e as [b|i|x|l|l|l|c t f|a b]; cbn [args_sat];
    try apply Forall_impl; try apply H; intuition auto.
Qed.

(* bexp_args_ind with the hypothesis also for the arguments of the arguments
   (transform_or2xor looks two levels down) *)
Lemma bexp_args2_ind (Q : bexp -> Prop) :
  (forall e, args_sat (fun x => Q x /\ args_sat Q x) e -> Q e) -> forall e, Q e.
Proof.
  intros H e. enough (HQ : Q e /\ args_sat Q e) by apply HQ.
  induction e as [e IH] using bexp_args_ind. split; [exact (H e IH)|].
  revert IH. apply args_sat_impl. tauto.
Qed.

(* the default visitor at one node: the arguments go through T and the node is
   built again, a Not by sympy's evaluating constructor; a symbol goes through S
   (BSym for a transformer, the dict for xreplace) *)
Definition rebuild (S : nat -> bexp) (T : bexp -> bexp) (e : bexp) : bexp :=
  match e with
  | BConst _ => e
  | BSym i => S i
  | BNot x => snot (T x)
  | BAnd l => BAnd (map T l)
  | BOr l => BOr (map T l)
  | BXor l => BXor (map T l)
  | BIte c t f => BIte (T c) (T t) (T f)
  | BImp a b => BImp (T a) (T b)
  end.

Lemma bexp_eqb_args l :
  Forall (fun x => forall y, bexp_eqb x y = true -> x = y) l ->
  forall m, bexp_eqb (BAnd l) (BAnd m) = true -> l = m.
Proof.
  induction 1 as [|x r Hx _ IHr]; intros [|y m] H; cbn [bexp_eqb] in H; try discriminate H; [reflexivity|].
  apply andb_true_iff in H as [H1 H2]. f_equal; [exact (Hx y H1)|exact (IHr m H2)].
Qed.

Lemma bexp_eqb_eq : forall a b, bexp_eqb a b = true -> a = b.
Proof.
  intros a. induction a as [a IH] using bexp_args_ind.
  destruct a as [x|i|a|l|l|l|c t e|a1 a2]; intros b Hab;
    destruct b as [y|j|b|m|m|m|c' t' e'|b1 b2]; try discriminate Hab; cbn [args_sat] in IH.
  - f_equal. exact (Bool.eqb_prop _ _ Hab).
  - f_equal. now apply Nat.eqb_eq.
  - f_equal. exact (IH b Hab).
  - f_equal. exact (bexp_eqb_args l IH m Hab).
  - f_equal. exact (bexp_eqb_args l IH m Hab).
  - f_equal. exact (bexp_eqb_args l IH m Hab).
  - cbn [bexp_eqb] in Hab. apply andb_true_iff in Hab as [Hab H3]. apply andb_true_iff in Hab as [H1 H2].
    destruct IH as (IHc & IHt & IHe). f_equal; [exact (IHc _ H1)|exact (IHt _ H2)|exact (IHe _ H3)].
  - cbn [bexp_eqb] in Hab. apply andb_true_iff in Hab as [H1 H2].
    destruct IH as (IH1 & IH2). f_equal; [exact (IH1 _ H1)|exact (IH2 _ H2)].
Qed.

Lemma list_bexp_eqb_eq : forall l m, list_eqb bexp_eqb l m = true -> l = m.
Proof.
  induction l as [|x l IH]; intros [|y m] H; cbn [list_eqb] in H; try discriminate H; [reflexivity|].
  apply andb_true_iff in H as [H1 H2]. f_equal; [now apply bexp_eqb_eq|now apply IH].
Qed.

Lemma snot_beval env e : beval env (snot e) = negb (beval env e).
Proof.
  destruct e as [b|i|x|l|l|l|c t f|a b]; try reflexivity.
  - now destruct b.
  - cbn [snot]. rewrite beval_not. now rewrite negb_involutive.
Qed.

Lemma snot_syms e : bsyms (snot e) = bsyms e.
Proof. destruct e; reflexivity. Qed.

Lemma rebuild_beval env env' S T e :
  (forall i, beval env (S i) = env' i) ->
  args_sat (fun x => beval env (T x) = beval env' x) e ->
  beval env (rebuild S T e) = beval env' e.
Proof.
  intros HS H. destruct e as [b|i|x|l|l|l|c t f|a b]; cbn [rebuild args_sat] in H |- *;
    try apply (fold_right_map_ext _ _ _ _ _ _ H).
  - reflexivity.
  - apply HS.
  - now rewrite snot_beval, beval_not, H.
  - destruct H as (Hc & Ht & Hf). now rewrite !beval_ite, Hc, Ht, Hf.
  - destruct H as (Ha & Hb). now rewrite !beval_imp, Ha, Hb.
Qed.

Lemma rebuild_preserves env T e :
  args_sat (fun x => beval env (T x) = beval env x) e -> beval env (rebuild BSym T e) = beval env e.
Proof. apply rebuild_beval. reflexivity. Qed.

Definition syms_sub (T : bexp -> bexp) (x : bexp) : Prop :=
  forall i, In i (bsyms (T x)) -> In i (bsyms x).

(* A transformer T is shown to keep [reads P] for every P; [syms_sub T e] is the
   case P = the symbols of e. *)
Lemma syms_sub_reads T e (P : nat -> Prop) : syms_sub T e -> reads P e -> reads P (T e).
Proof. intros H He i Hi. apply He, H, Hi. Qed.

Lemma rebuild_reads (P P' : nat -> Prop) S T e :
  (forall i, P i -> reads P' (S i)) ->
  args_sat (fun x => reads P x -> reads P' (T x)) e ->
  reads P e -> reads P' (rebuild S T e).
Proof.
  intros HS H He. apply reads_node in He.
  destruct e as [b|i|x|l|l|l|c t f|a b]; cbn [rebuild args_sat] in *;
    try (apply reads_node, Forall_map; exact (Forall_mp _ _ l H He)).
  - intros i [].
  - exact (HS i He).
  - intros i. rewrite snot_syms. exact (H He i).
  - apply reads_node. cbn [args_sat]. tauto.
  - apply reads_node. cbn [args_sat]. tauto.
Qed.

Lemma rebuild_keeps_reads P T e :
  args_sat (fun x => reads P x -> reads P (T x)) e -> reads P e -> reads P (rebuild BSym T e).
Proof. apply rebuild_reads. intros i Hi. now apply reads_node. Qed.

(* what every transformer's output is to its input, at arbitrary arities *)
Definition refines (a b : bexp) : Prop :=
  (forall env, beval env a = beval env b) /\ (forall i, In i (bsyms a) -> In i (bsyms b)).

Lemma refines_beval a b : refines a b -> forall env, beval env a = beval env b.
Proof. intros H. exact (proj1 H). Qed.

Lemma refines_reads a b (P : nat -> Prop) : refines a b -> reads P b -> reads P a.
Proof. intros [_ H] Hb i Hi. apply Hb, H, Hi. Qed.

Lemma rebuild_refines T e : args_sat (fun x => refines (T x) x) e -> refines (rebuild BSym T e) e.
Proof.
  intros H. split.
  - intros env. apply rebuild_preserves. revert H. apply args_sat_impl. intros x Hx. exact (refines_beval _ _ Hx env).
  - apply (rebuild_keeps_reads (fun i => In i (bsyms e))); [|exact (fun i Hi => Hi)].
    revert H. apply args_sat_impl. intros x. apply refines_reads.
Qed.

Theorem visit_default_refines e : refines (visit_default e) e.
Proof. induction e as [e IH] using bexp_args_ind. destruct e; exact (rebuild_refines visit_default _ IH). Qed.

Theorem remove_ITE_refines e : refines (remove_ITE e) e.
Proof.
  induction e as [e IH] using bexp_args_ind.
  destruct e as [b|i|x|l|l|l|c t f|a b]; try exact (rebuild_refines remove_ITE _ IH).
  destruct IH as ((Hc & Sc) & (Ht & St) & (Hf & Sf)). cbn [remove_ITE]. split.
  - intros env. rewrite beval_or. cbn [existsb]. rewrite !beval_and. cbn [forallb].
    rewrite snot_beval, Hc, Ht, Hf, beval_ite.
    destruct (beval env c), (beval env t), (beval env f); reflexivity.
  - intros i Hi. cbn [bsyms flat_map] in Hi |- *.
    rewrite snot_syms, !app_nil_r, !in_app_iff in Hi. rewrite !in_app_iff.
    destruct Hi as [[Hi|Hi]|[Hi|Hi]]; auto.
Qed.

Theorem remove_Implies_refines e : refines (remove_Implies e) e.
Proof.
  induction e as [e IH] using bexp_args_ind.
  destruct e as [b|i|x|l|l|l|c t f|a b]; try exact (rebuild_refines remove_Implies _ IH).
  destruct IH as ((Ha & Sa) & (Hb & Sb)). cbn [remove_Implies]. split.
  - intros env. rewrite beval_or. cbn [existsb]. rewrite snot_beval, Ha, Hb, beval_imp.
    destruct (beval env a), (beval env b); reflexivity.
  - intros i Hi. cbn [bsyms flat_map] in Hi |- *.
    rewrite snot_syms, !app_nil_r, !in_app_iff in Hi. rewrite in_app_iff. destruct Hi as [Hi|Hi]; auto.
Qed.

(* the positional pattern of visit_Or, [BAnd [p; q]; BAnd [r; s]], is looked at
   from the left: an argument that is not a conjunction of two makes the clause
   the default one whatever follows it, so each destruct leaves one open case *)
Lemma or2xor_unfold l :
  transform_or2xor (BOr l) =
  match or2xor_match l with
  | Some (p, q) => BNot (BXor [transform_or2xor p; transform_or2xor q])
  | None => BOr (map transform_or2xor l)
  end.
Proof.
  destruct l as [|x t]; [reflexivity|].
  destruct x as [ | | |[|p [|q [|p3 pr]]]| | | | ]; try reflexivity.
  destruct t as [|y t]; [reflexivity|].
  destruct y as [ | | |[|r [|s [|s3 sr]]]| | | | ]; try reflexivity.
  destruct t; [|reflexivity].
  cbn [transform_or2xor or2xor_match]. destruct (or2xor_test p q r s); reflexivity.
Qed.

Lemma or2xor_match_some l p q : or2xor_match l = Some (p, q) ->
  exists r s, l = [BAnd [p; q]; BAnd [r; s]] /\ or2xor_test p q r s = true.
Proof.
  destruct l as [|x t]; [discriminate|].
  destruct x as [ | | |[|p' [|q' [|p3 pr]]]| | | | ]; try discriminate.
  destruct t as [|y t]; [discriminate|].
  destruct y as [ | | |[|r [|s [|s3 sr]]]| | | | ]; try discriminate.
  destruct t; [|discriminate].
  cbn [or2xor_match]. destruct (or2xor_test p' q' r s) eqn:Ht; [|discriminate].
  intros H. injection H as -> ->. now exists r, s.
Qed.

Lemma or2xor_test_sem env p q r s : or2xor_test p q r s = true ->
  beval env r = negb (beval env p) /\ beval env s = negb (beval env q).
Proof.
  unfold or2xor_test. intros H. apply orb_true_iff in H as [H|H];
    apply andb_true_iff in H as [H1 H2]; apply bexp_eqb_eq in H1; apply bexp_eqb_eq in H2.
  - subst r s. now rewrite !snot_beval.
  - subst p q. rewrite !snot_beval, !negb_involutive. now split.
Qed.

Theorem or2xor_refines e : refines (transform_or2xor e) e.
Proof.
  induction e as [e IH] using bexp_args2_ind.
  assert (IH1 := args_sat_impl _ (fun x => refines (transform_or2xor x) x) e (fun x H => proj1 H) IH).
  destruct e as [b|i|x|l|l|l|c t f|a b]; try exact (rebuild_refines transform_or2xor _ IH1).
  rewrite or2xor_unfold. destruct (or2xor_match l) as [[p q]|] eqn:Hm;
    [|exact (rebuild_refines transform_or2xor (BOr l) IH1)].
  apply or2xor_match_some in Hm as (r & s & -> & Ht).
  apply Forall_inv in IH as [_ Hpq]. cbn [args_sat] in Hpq.
  destruct (Forall_inv Hpq) as [Hp Sp]. destruct (Forall_inv (Forall_inv_tail Hpq)) as [Hq Sq]. split.
  - intros env. apply (or2xor_test_sem env) in Ht as [Hr Hs].
    rewrite beval_not, beval_xor. cbn [map fold_right]. rewrite Hp, Hq.
    rewrite beval_or. cbn [existsb]. rewrite !beval_and. cbn [forallb]. rewrite Hr, Hs.
    destruct (beval env p), (beval env q); reflexivity.
  - intros i Hi. cbn [bsyms flat_map] in Hi |- *. rewrite app_nil_r, in_app_iff in Hi. rewrite !in_app_iff.
    destruct Hi as [Hi|Hi]; auto.
Qed.

Lemma nand_of_nots env (T : bexp -> bexp) l :
  Forall (fun x => beval env (T x) = beval env x) l ->
  forallb (beval env) (map (fun x => snot (T x)) l) = negb (existsb (beval env) l).
Proof.
  intros H. induction H as [|x r Hx _ IHr]; cbn [map forallb existsb]; [reflexivity|].
  now rewrite snot_beval, Hx, IHr, negb_orb.
Qed.

Theorem or2and_refines dis e : refines (transform_or2and dis e) e.
Proof.
  induction e as [e IH] using bexp_args_ind.
  destruct e as [b|i|x|l|l|l|c t f|a b]; try exact (rebuild_refines (transform_or2and dis) _ IH).
  cbn [transform_or2and args_sat] in *. destruct (Nat.ltb 2 (List.length l) || dis); [|now split]. split.
  - intros env. rewrite beval_not, beval_and, beval_or, (nand_of_nots env _ l); [apply negb_involutive|].
    revert IH. apply Forall_impl. intros x Hx. exact (refines_beval _ _ Hx env).
  - apply (reads_node _ (BAnd _)), Forall_map, Forall_forall. rewrite Forall_forall in IH.
    intros x Hx i. rewrite snot_syms. intros Hi. apply in_flat_map. exists x.
    split; [exact Hx|apply (IH x Hx), Hi].
Qed.

Lemma compl_pair_sem env x y : compl_pair x y = true -> beval env y = negb (beval env x).
Proof.
  destruct x as [ |i|z| | | | | ]; try discriminate; destruct y as [ |j|z'| | | | | ]; try discriminate;
    cbn [compl_pair]; intros H; apply bexp_eqb_eq in H; subst.
  - reflexivity.
  - rewrite beval_not. now rewrite negb_involutive.
Qed.

Theorem remove_obvious_refines e : refines (remove_obvious e) e.
Proof.
  induction e as [e IH] using bexp_args_ind.
  destruct e as [b|i|x|l|l|l|c t f|a b]; try exact (rebuild_refines remove_obvious _ IH);
    cbn [remove_obvious].
  1: { destruct x as [ | |y| | | | | ]; try (now split). split; [|trivial].
       intros env. rewrite !beval_not. now rewrite negb_involutive. }
  (* And, Or alike *)
  all: destruct l as [|x [|y [|z r]]]; try (now split).
  all: destruct (compl_pair x y) eqn:Hc; [|now split]. all: split; [|intros i []].
  all: intros env; rewrite ?beval_and, ?beval_or; cbn [forallb existsb].
  all: rewrite (compl_pair_sem env _ _ Hc); now destruct (beval env x).
Qed.

(* The second self.visit of remove_ITE.visit_ITE / remove_Implies.visit_Implies
   (on the node just built from visited children) changes nothing: the output
   of the transformer is a fixed point of the transformer: it is in the normal
   form [nf ai am] (no Not over a Not or a constant, ITE only if ai, Implies only
   if am), which the transformer leaves as it is. *)
Definition not_arg_ok (x : bexp) : bool :=
  match x with BNot _ | BConst _ => false | _ => true end.

Definition allowed (ai am : bool) (e : bexp) : bool :=
  match e with BIte _ _ _ => ai | BImp _ _ => am | _ => true end.

Fixpoint nf (ai am : bool) (e : bexp) : bool :=
  match e with
  | BConst _ | BSym _ => true
  | BNot x => not_arg_ok x && nf ai am x
  | BAnd l | BOr l | BXor l => forallb (nf ai am) l
  | BIte c t f => ai && (nf ai am c && (nf ai am t && nf ai am f))
  | BImp a b => am && (nf ai am a && nf ai am b)
  end.

Lemma snot_nf ai am e : nf ai am e = true -> nf ai am (snot e) = true.
Proof.
  destruct e as [b|i|x|l|l|l|c t f|a b]; intros H; cbn [snot]; try exact H;
    try (cbn [nf not_arg_ok] in *; rewrite H; reflexivity).
  cbn [nf] in H. apply andb_true_iff in H. exact (proj2 H).
Qed.

Lemma snot_of_ok x : not_arg_ok x = true -> snot x = BNot x.
Proof. destruct x; try reflexivity; discriminate. Qed.

Lemma forallb_map_true (p : bexp -> bool) (T : bexp -> bexp) l :
  Forall (fun x => p (T x) = true) l -> forallb p (map T l) = true.
Proof. intros H. induction H as [|x r Hx _ IHr]; cbn [map forallb]; [reflexivity|now rewrite Hx, IHr]. Qed.

Lemma map_fix_forall (p : bexp -> bool) (T : bexp -> bexp) l :
  Forall (fun x => p x = true -> T x = x) l -> forallb p l = true -> map T l = l.
Proof.
  intros H. induction H as [|x r Hx _ IHr]; cbn [map forallb]; intros Hp; [reflexivity|].
  apply andb_true_iff in Hp as [H1 H2]. now rewrite Hx, IHr.
Qed.

Lemma rebuild_nf ai am T e :
  args_sat (fun x => nf ai am (T x) = true) e -> allowed ai am e = true -> nf ai am (rebuild BSym T e) = true.
Proof.
  intros H Ha. destruct e as [b|i|x|l|l|l|c t f|a b]; cbn [rebuild args_sat nf allowed] in *;
    try reflexivity; try (now apply forallb_map_true).
  - now apply snot_nf.
  - destruct H as (Hc & Ht & Hf). now rewrite Hc, Ht, Hf, Ha.
  - destruct H as (H1 & H2). now rewrite H1, H2, Ha.
Qed.

Lemma rebuild_fixed ai am T e :
  args_sat (fun x => nf ai am x = true -> T x = x) e -> nf ai am e = true -> rebuild BSym T e = e.
Proof.
  intros H Hn. destruct e as [b|i|x|l|l|l|c t f|a b]; cbn [rebuild args_sat nf] in *;
    try reflexivity; try (f_equal; now apply (map_fix_forall (nf ai am))).
  - apply andb_true_iff in Hn as [H1 H2]. rewrite (H H2). now apply snot_of_ok.
  - destruct H as (Hc & Ht & Hf). apply andb_true_iff in Hn as [_ Hn].
    apply andb_true_iff in Hn as [H1 Hn]. apply andb_true_iff in Hn as [H2 H3].
    now rewrite Hc, Ht, Hf.
  - destruct H as (Ha & Hb). apply andb_true_iff in Hn as [_ Hn]. apply andb_true_iff in Hn as [H1 H2].
    now rewrite Ha, Hb.
Qed.

Lemma remove_ITE_nf e : nf false true (remove_ITE e) = true.
Proof.
  induction e as [e IH] using bexp_args_ind.
  destruct e as [b|i|x|l|l|l|c t f|a b]; try exact (rebuild_nf false true remove_ITE _ IH eq_refl).
  destruct IH as (Hc & Ht & Hf). cbn [remove_ITE nf forallb]. now rewrite Hc, Ht, Hf, (snot_nf _ _ _ Hc).
Qed.

Lemma remove_ITE_fixed e : nf false true e = true -> remove_ITE e = e.
Proof.
  induction e as [e IH] using bexp_args_ind.
  destruct e as [b|i|x|l|l|l|c t f|a b]; try exact (rebuild_fixed false true remove_ITE _ IH).
  discriminate.
Qed.

Theorem remove_ITE_idem e : remove_ITE (remove_ITE e) = remove_ITE e.
Proof. apply remove_ITE_fixed, remove_ITE_nf. Qed.

Lemma remove_Implies_nf e : nf true false (remove_Implies e) = true.
Proof.
  induction e as [e IH] using bexp_args_ind.
  destruct e as [b|i|x|l|l|l|c t f|a b]; try exact (rebuild_nf true false remove_Implies _ IH eq_refl).
  destruct IH as (Ha & Hb). cbn [remove_Implies nf forallb]. now rewrite Hb, (snot_nf _ _ _ Ha).
Qed.

Lemma remove_Implies_fixed e : nf true false e = true -> remove_Implies e = e.
Proof.
  induction e as [e IH] using bexp_args_ind.
  destruct e as [b|i|x|l|l|l|c t f|a b]; try exact (rebuild_fixed true false remove_Implies _ IH).
  discriminate.
Qed.

Theorem remove_Implies_idem e : remove_Implies (remove_Implies e) = remove_Implies e.
Proof. apply remove_Implies_fixed, remove_Implies_nf. Qed.

(* every symbol an expression reads is allowed: [ok] initially (the inputs),
   then also the symbols defined earlier in the list *)
Fixpoint free_ok (ok : nat -> Prop) (ds : defs) : Prop :=
  match ds with
  | [] => True
  | (s, e) :: r => (forall i, In i (bsyms e) -> ok i) /\ free_ok (fun i => ok i \/ i = s) r
  end.

Lemma free_ok_mono ds : forall (ok1 ok2 : nat -> Prop),
  (forall i, ok1 i -> ok2 i) -> free_ok ok1 ds -> free_ok ok2 ds.
Proof.
  induction ds as [|[s e] r IH]; intros ok1 ok2 Hsub H; [exact I|].
  destruct H as [H1 H2]. split; [intros i Hi; apply Hsub, H1, Hi|].
  apply (IH (fun i => ok1 i \/ i = s)); [|exact H2]. intros i [Hi|Hi]; [left; apply Hsub, Hi|now right].
Qed.

Lemma free_ok_app a : forall ok b,
  free_ok ok a -> free_ok (fun i => ok i \/ In i (names a)) b -> free_ok ok (a ++ b).
Proof.
  induction a as [|[s e] r IH]; intros ok b Ha Hb; cbn [app].
  - eapply free_ok_mono; [|exact Hb]. intros i [Hi|[]]; exact Hi.
  - destruct Ha as [H1 H2]. split; [exact H1|]. apply IH; [exact H2|]. eapply free_ok_mono; [|exact Hb].
    cbn [names map fst In]. intros i [Hi|[Hi|Hi]]; [left; now left|left; right; now symmetry|now right].
Qed.

Lemma all_syms_cons s e r i : In i (all_syms ((s, e) :: r)) <-> In i (bsyms e) \/ In i (all_syms r).
Proof. unfold all_syms, exprs. cbn [map snd flat_map]. apply in_app_iff. Qed.

Lemma free_ok_syms ds : forall ok, free_ok ok ds ->
  forall i, In i (all_syms ds) -> ok i \/ In i (names ds).
Proof.
  induction ds as [|[s e] r IH]; intros ok H i Hi; [destruct Hi|].
  destruct H as [H1 H2]. apply all_syms_cons in Hi as [Hi|Hi]; [left; now apply H1|].
  cbn [names map fst In]. destruct (IH _ H2 i Hi) as [[Hk|Hk]|Hk]; auto.
Qed.

Lemma names_map_defs T ds : names (map_defs T ds) = names ds.
Proof. unfold names, map_defs. rewrite map_map. reflexivity. Qed.

Lemma free_ok_map_defs T : (forall P e, reads P e -> reads P (T e)) ->
  forall ds ok, free_ok ok ds -> free_ok ok (map_defs T ds).
Proof.
  intros HT. induction ds as [|[s e] r IH]; intros ok H; [exact I|].
  destruct H as [H1 H2]. split; [exact (HT ok e H1)|exact (IH _ H2)].
Qed.

Lemma run_defs_map_defs T : (forall env e, beval env (T e) = beval env e) ->
  forall ds env j, run_defs env (map_defs T ds) j = run_defs env ds j.
Proof.
  intros HT. induction ds as [|[s e] r IH]; intros env j; [reflexivity|].
  cbn [map_defs map fst snd]. rewrite !run_defs_cons. fold (map_defs T r). rewrite IH.
  apply run_defs_ext. intros i. now rewrite HT.
Qed.

(* substitution: xreplace is the default visitor with the dict at the symbols *)
Definition binding (emap : defs) (i : nat) : bexp :=
  match lookup emap i with Some v => v | None => BSym i end.

Lemma subst_rebuild emap e : subst emap e = rebuild (binding emap) (subst emap) e.
Proof. destruct e; reflexivity. Qed.

(* the assignment under which e evaluates as [subst emap e] does under env *)
Definition recon (emap : defs) (env : nat -> bool) : nat -> bool := fun i => beval env (binding emap i).

Lemma subst_correct emap env e : beval env (subst emap e) = beval (recon emap env) e.
Proof.
  induction e as [e IH] using bexp_args_ind. rewrite subst_rebuild.
  apply rebuild_beval; [reflexivity|exact IH].
Qed.

Lemma subst_reads emap (P P' : nat -> Prop) : (forall i, P i -> reads P' (binding emap i)) ->
  forall e, reads P e -> reads P' (subst emap e).
Proof.
  intros HS e. induction e as [e IH] using bexp_args_ind. rewrite subst_rebuild. now apply rebuild_reads.
Qed.

Lemma lookup_syms emap i v k : lookup emap i = Some v -> In k (bsyms v) -> In k (all_syms emap).
Proof.
  induction emap as [|[s w] r IH]; [discriminate|]. cbn [lookup]. rewrite all_syms_cons.
  destruct (Nat.eqb i s); [intros H; injection H as ->; now left|intros H Hk; right; exact (IH H Hk)].
Qed.

(* simplify_logic: the result evaluates like the argument on every assignment *)
Definition simp_sem (simp : bexp -> bexp) : Prop := forall env e, beval env (simp e) = beval env e.
(* ... and mentions no symbol the argument does not mention *)
Definition simp_syms (simp : bexp -> bexp) : Prop := forall e, syms_sub simp e.

(* cse: as many reduced expressions as expressions; evaluating the replacements
   in order and then a reduced expression gives the value of the original
   expression; replacement symbols are not _ret symbols; replacements read only
   symbols of the expressions or earlier replacement symbols, reduced
   expressions only symbols of the expressions or replacement symbols *)
Record cse_contract (is_ret : nat -> bool) (cse : list bexp -> defs * list bexp) : Prop := {
  cse_len : forall es, List.length (snd (cse es)) = List.length es;
  cse_sem : forall es env k,
    beval (run_defs env (fst (cse es))) (nth k (snd (cse es)) (BConst false)) =
    beval env (nth k es (BConst false));
  cse_notret : forall es s, In s (names (fst (cse es))) -> is_ret s = false;
  cse_repl_syms : forall es, free_ok (fun i => In i (flat_map bsyms es)) (fst (cse es));
  cse_red_syms : forall es e i, In e (snd (cse es)) -> In i (bsyms e) ->
    In i (flat_map bsyms es) \/ In i (names (fst (cse es)))
}.

Section Lists.
  Variable simp : bexp -> bexp.
  Variable cse : list bexp -> defs * list bexp.
  Variable is_ret : nat -> bool.
  Variable disable_or : bool.

  (* custom_simplify_logic: default clauses at Not, And, Or; Xor is returned
     as it is; simplify_logic elsewhere *)
  Lemma custom_simplify_preserves : simp_sem simp ->
    forall env e, beval env (custom_simplify simp e) = beval env e.
  Proof.
    intros Hs env e. induction e as [e IH] using bexp_args_ind.
    destruct e as [b|i|x|l|l|l|c t f|a b]; try exact (rebuild_preserves env (custom_simplify simp) _ IH);
      try apply Hs.
    reflexivity.
  Qed.

  Lemma custom_simplify_reads : simp_syms simp ->
    forall P e, reads P e -> reads P (custom_simplify simp e).
  Proof.
    intros Hs P e. induction e as [e IH] using bexp_args_ind.
    destruct e as [b|i|x|l|l|l|c t f|a b]; try exact (rebuild_keeps_reads P (custom_simplify simp) _ IH);
      try exact (syms_sub_reads simp _ P (Hs _)).
    trivial.
  Qed.

  (* guard of merge_expressions: a _ret symbol is not defined after an earlier expression has read it
     ([seen] = the symbols read so far).  Every list in which a symbol is read
     only after its definition and a _ret symbol is defined once satisfies it. *)
  Fixpoint ret_fresh (seen : list nat) (ds : defs) : Prop :=
    match ds with
    | [] => True
    | (s, e) :: r => (is_ret s = true -> ~ In s seen) /\ ret_fresh (bsyms e ++ seen) r
    end.

  (* a value of the dict does not depend on a _ret symbol that was not read yet *)
  Definition emap_inv (emap : defs) (seen : list nat) : Prop :=
    forall i v, lookup emap i = Some v ->
    forall r, is_ret r = true -> ~ In r seen ->
    forall env x, beval (fun k => if Nat.eqb k r then x else env k) v = beval env v.

  Lemma merge_go_sem : simp_sem simp -> forall ds emap seen env,
    (forall i, is_ret i = true -> lookup emap i = None) ->
    emap_inv emap seen -> ret_fresh seen ds ->
    forall j, is_ret j = true ->
    run_defs env (merge_go simp is_ret emap ds) j = run_defs (recon emap env) ds j.
  Proof.
    intros Hs. induction ds as [|[s e] r IH]; intros emap seen env Hnone Hinv Hfresh j Hj.
    - cbn [merge_go]. unfold run_defs, recon, binding; cbn [fold_left]. now rewrite (Hnone j Hj).
    - destruct Hfresh as [Hsfresh Hrest]. cbn [merge_go].
      set (e' := custom_simplify simp (subst emap e)).
      assert (He' : forall env0, beval env0 e' = beval (recon emap env0) e).
      { intros env0. unfold e'. now rewrite custom_simplify_preserves, subst_correct. }
      assert (Hmono : emap_inv emap (bsyms e ++ seen)).
      { intros i v Hl r0 Hr0 Hnin. apply (Hinv i v Hl r0 Hr0). intros Hin. apply Hnin, in_or_app. now right. }
      destruct (is_ret s) eqn:Hrs.
      + rewrite !run_defs_cons. rewrite (IH emap (bsyms e ++ seen)); [|exact Hnone|exact Hmono|exact Hrest|exact Hj].
        apply run_defs_ext. intros i. unfold recon at 1 3, binding.
        destruct (lookup emap i) as [v|] eqn:Hl.
        * destruct (Nat.eqb_spec i s) as [->|Hne]; [rewrite (Hnone s Hrs) in Hl; discriminate Hl|].
          apply (Hinv i v Hl s Hrs (Hsfresh eq_refl)).
        * rewrite !beval_sym. destruct (Nat.eqb i s); [apply He'|reflexivity].
      + rewrite run_defs_cons. rewrite (IH ((s, e') :: emap) (bsyms e ++ seen)); [| | |exact Hrest|exact Hj].
        * apply run_defs_ext. intros i. unfold recon at 1, binding. cbn [lookup].
          destruct (Nat.eqb i s); [apply He'|reflexivity].
        * intros i Hi. cbn [lookup]. destruct (Nat.eqb_spec i s) as [->|Hne]; [congruence|now apply Hnone].
        * intros i v Hl r0 Hr0 Hnin env0 x. cbn [lookup] in Hl.
          destruct (Nat.eqb i s); [|exact (Hmono i v Hl r0 Hr0 Hnin env0 x)].
          injection Hl as <-. rewrite !He'. apply beval_syms_ext. intros k Hk. unfold recon, binding.
          destruct (lookup emap k) as [w|] eqn:Hlk.
          -- apply (Hmono k w Hlk r0 Hr0 Hnin).
          -- rewrite !beval_sym.
             destruct (Nat.eqb_spec k r0) as [->|Hne]; [|reflexivity].
             exfalso. apply Hnin, in_or_app. now left.
  Qed.

  Theorem merge_preserves : simp_sem simp -> forall ds, ret_fresh [] ds ->
    forall env j, is_ret j = true ->
    run_defs env (merge_expressions simp is_ret ds) j = run_defs env ds j.
  Proof.
    intros Hs ds Hf env j Hj. unfold merge_expressions.
    rewrite (merge_go_sem Hs ds [] [] env); [|reflexivity| |exact Hf|exact Hj].
    - apply run_defs_ext. reflexivity.
    - intros i v Hl. discriminate Hl.
  Qed.

  Definition no_ret_read (ds : defs) : Prop :=
    forall r, In r (names ds) -> is_ret r = true -> ~ In r (all_syms ds).

  Lemma ret_fresh_of ds : forall seen,
    (forall r, In r (names ds) -> is_ret r = true -> ~ In r seen /\ ~ In r (all_syms ds)) ->
    ret_fresh seen ds.
  Proof.
    induction ds as [|[s e] r IH]; intros seen H; [exact I|]. cbn [ret_fresh]. split.
    - intros Hs. apply (H s); [now left|exact Hs].
    - apply IH. intros r0 Hin Hr0. destruct (H r0 (or_intror Hin) Hr0) as [H1 H2].
      rewrite all_syms_cons in H2. rewrite in_app_iff.
      split; [intros [Hi|Hi]; [apply H2; now left|exact (H1 Hi)]|intros Hi; apply H2; now right].
  Qed.

  Lemma no_ret_read_fresh ds : no_ret_read ds -> ret_fresh [] ds.
  Proof. intros H. apply ret_fresh_of. intros r Hin Hr. split; [intros []|now apply H]. Qed.

  Lemma names_merge_go ds : forall emap, names (merge_go simp is_ret emap ds) = filter is_ret (names ds).
  Proof.
    induction ds as [|[s e] r IH]; intros emap; [reflexivity|].
    cbn [merge_go names map fst filter]. destruct (is_ret s); [cbn [map fst]; f_equal|]; apply IH.
  Qed.

  (* a value of the dict stands for a symbol allowed in [ok_in]; it reads only [ok_out] *)
  Lemma merged_reads : simp_syms simp -> forall emap (ok_in ok_out : nat -> Prop) e,
    (forall i, ok_in i -> reads ok_out (binding emap i)) ->
    reads ok_in e -> reads ok_out (custom_simplify simp (subst emap e)).
  Proof. intros Hs emap ok_in ok_out e Hb He. apply (custom_simplify_reads Hs), (subst_reads emap ok_in), He. exact Hb. Qed.

  Lemma all_syms_merge_go : simp_syms simp -> forall (P : nat -> Prop) ds emap,
    (forall i, In i (all_syms ds) -> P i) -> (forall i, In i (all_syms emap) -> P i) ->
    forall i, In i (all_syms (merge_go simp is_ret emap ds)) -> P i.
  Proof.
    intros Hs P. induction ds as [|[s e] r IH]; intros emap Hds Hm; cbn [merge_go]; [intros i []|].
    assert (He' : reads P (custom_simplify simp (subst emap e))).
    { apply (merged_reads Hs emap P); [|intros i Hi; apply Hds, all_syms_cons; now left].
      intros i Hi. unfold binding. destruct (lookup emap i) as [v|] eqn:Hl; [|now apply reads_node].
      intros k Hk. exact (Hm k (lookup_syms _ _ _ _ Hl Hk)). }
    assert (Hr : forall i, In i (all_syms r) -> P i) by (intros i Hi; apply Hds, all_syms_cons; now right).
    destruct (is_ret s).
    - intros i Hi. apply all_syms_cons in Hi as [Hi|Hi]; [exact (He' i Hi)|exact (IH emap Hr Hm i Hi)].
    - apply IH; [exact Hr|]. intros i Hi. apply all_syms_cons in Hi as [Hi|Hi]; [exact (He' i Hi)|exact (Hm i Hi)].
  Qed.

  Lemma merge_go_free : simp_syms simp -> forall ds emap (ok_in ok_out : nat -> Prop),
    (forall i, ok_in i -> ok_out i \/ lookup emap i <> None) ->
    (forall i v, lookup emap i = Some v -> reads ok_out v) ->
    free_ok ok_in ds -> free_ok ok_out (merge_go simp is_ret emap ds).
  Proof.
    intros Hs. induction ds as [|[s e] r IH]; intros emap ok_in ok_out Hrel Hvals H; [exact I|].
    destruct H as [H1 H2]. cbn [merge_go].
    assert (He' : reads ok_out (custom_simplify simp (subst emap e))).
    { apply (merged_reads Hs emap ok_in); [|exact H1]. intros i Hi. unfold binding.
      destruct (lookup emap i) as [v|] eqn:Hl; [exact (Hvals i v Hl)|].
      apply reads_node. destruct (Hrel i Hi); [assumption|congruence]. }
    destruct (is_ret s) eqn:Hrs.
    - cbn [free_ok]. split; [exact He'|].
      apply (IH emap (fun i => ok_in i \/ i = s)); [| |exact H2].
      + intros i [Hi|Hi]; [destruct (Hrel i Hi); [left; now left|now right]|left; now right].
      + intros i v Hl k Hk. left. exact (Hvals i v Hl k Hk).
    - apply (IH _ (fun i => ok_in i \/ i = s)); [| |exact H2].
      + intros i [Hi|Hi]; cbn [lookup].
        * destruct (Nat.eqb i s); [right; discriminate|exact (Hrel i Hi)].
        * subst i. right. rewrite Nat.eqb_refl. discriminate.
      + intros i v Hl. cbn [lookup] in Hl. destruct (Nat.eqb i s); [|exact (Hvals i v Hl)].
        injection Hl as <-. exact He'.
  Qed.

  Theorem merge_free : simp_syms simp -> forall ds ok,
    free_ok ok ds -> free_ok ok (merge_expressions simp is_ret ds).
  Proof.
    intros Hs ds ok H. apply (merge_go_free Hs ds [] ok ok); [now left| |exact H].
    intros i v Hl. discriminate Hl.
  Qed.

  Theorem merge_keeps_ret ds r : is_ret r = true -> In r (names ds) ->
    In r (names (merge_expressions simp is_ret ds)).
  Proof. intros Hr Hin. unfold merge_expressions. rewrite names_merge_go. apply filter_In. now split. Qed.

  Definition indep (nm : list nat) (e : bexp) : Prop := forall i, In i (bsyms e) -> ~ In i nm.

  (* value of j after definitions whose values are already known: the last one wins *)
  Fixpoint last_val (nm : list nat) (vals : list bool) (base : bool) (j : nat) : bool :=
    match nm, vals with
    | s :: nm', v :: vals' => last_val nm' vals' (if Nat.eqb j s then v else base) j
    | _, _ => base
    end.

  (* expressions that read none of the names they are assigned to can all be
     evaluated beforehand *)
  Lemma run_defs_static nm0 env0 : forall nm es env,
    (forall e, In e es -> indep nm0 e) -> incl nm nm0 ->
    (forall i, ~ In i nm0 -> env i = env0 i) ->
    forall j, run_defs env (combine nm es) j = last_val nm (map (beval env0) es) (env j) j.
  Proof.
    induction nm as [|s nm IH]; intros es env Hind Hincl Henv j; [reflexivity|].
    destruct es as [|e es]; [reflexivity|].
    cbn [combine map last_val]. rewrite run_defs_cons.
    assert (Hs : In s nm0) by (apply Hincl; now left).
    assert (He : beval env e = beval env0 e).
    { apply beval_syms_ext. intros i Hi. apply Henv. exact (Hind e (or_introl eq_refl) i Hi). }
    rewrite IH.
    - now rewrite He.
    - intros e0 He0. apply Hind. now right.
    - intros i Hi. apply Hincl. now right.
    - intros i Hi. destruct (Nat.eqb_spec i s) as [->|Hne]; [contradiction|now apply Henv].
  Qed.

  Lemma combine_names_exprs (ds : defs) : combine (names ds) (exprs ds) = ds.
  Proof. induction ds as [|[s e] r IH]; [reflexivity|]. cbn [names exprs map fst snd combine]. f_equal. exact IH. Qed.

  Lemma names_combine (nm : list nat) : forall (es : list bexp),
    List.length es = List.length nm -> names (combine nm es) = nm.
  Proof.
    induction nm as [|s nm IH]; intros [|e es] H; try discriminate H; [reflexivity|].
    cbn [combine names map fst]. f_equal. apply IH. now injection H.
  Qed.

  Lemma exprs_length (ds : defs) : List.length (exprs ds) = List.length (names ds).
  Proof. unfold exprs, names. now rewrite !map_length. Qed.

  (* guard G1: no expression reads a symbol the list defines;
     guard G2: no name of the list is a replacement symbol.
     A _ret symbol is never a replacement symbol (cse_notret). *)
  Theorem apply_cse_partial : cse_contract is_ret cse -> forall ds,
    (forall i, In i (all_syms ds) -> ~ In i (names ds)) ->
    (forall s, In s (names ds) -> ~ In s (names (fst (cse (exprs ds))))) ->
    forall env j, (~ In j (names (fst (cse (exprs ds)))) \/ is_ret j = true) ->
    run_defs env (apply_cse cse ds) j = run_defs env ds j.
  Proof.
    intros Hc ds G1 G2 env j Hj.
    assert (Hj' : ~ In j (names (fst (cse (exprs ds))))).
    { destruct Hj as [Hj|Hj]; [exact Hj|]. intros Hin. rewrite (cse_notret _ _ Hc _ _ Hin) in Hj. discriminate Hj. }
    clear Hj. rename Hj' into Hj. unfold apply_cse.
    set (repl := fst (cse (exprs ds))) in *. set (red := snd (cse (exprs ds))).
    rewrite run_defs_app. set (env1 := run_defs env repl).
    rewrite (run_defs_static (names ds) env1 (names ds) red env1).
    - transitivity (run_defs env (combine (names ds) (exprs ds)) j); [|now rewrite combine_names_exprs].
      rewrite (run_defs_static (names ds) env (names ds) (exprs ds) env).
      + f_equal.
        * apply (nth_ext _ _ (beval env1 (BConst false)) (beval env (BConst false))).
          -- rewrite !map_length. apply (cse_len _ _ Hc).
          -- intros k _. rewrite !map_nth. apply (cse_sem _ _ Hc).
        * unfold env1. now apply run_defs_notin.
      + intros e He i Hi. apply G1. apply in_flat_map. now exists e.
      + apply incl_refl.
      + reflexivity.
    - intros e He i Hi Hn. destruct (cse_red_syms _ _ Hc (exprs ds) e i He Hi) as [H|H].
      + exact (G1 i H Hn).
      + exact (G2 i Hn H).
    - apply incl_refl.
    - reflexivity.
  Qed.

  Lemma names_apply_cse : cse_contract is_ret cse -> forall ds,
    names (apply_cse cse ds) = names (fst (cse (exprs ds))) ++ names ds.
  Proof.
    intros Hc ds. unfold apply_cse, names at 1. rewrite map_app. fold (names (fst (cse (exprs ds)))). f_equal.
    apply names_combine. rewrite (cse_len _ _ Hc). apply exprs_length.
  Qed.

  Lemma free_ok_combine (ok : nat -> Prop) : forall nm es,
    (forall e, In e es -> reads ok e) -> free_ok ok (combine nm es).
  Proof.
    intros nm es. revert ok nm. induction es as [|e es IH]; intros ok nm H; [destruct nm; exact I|].
    destruct nm as [|s nm]; [exact I|]. cbn [combine free_ok]. split.
    - exact (H e (or_introl eq_refl)).
    - apply IH. intros e0 He0 i Hi. left. exact (H e0 (or_intror He0) i Hi).
  Qed.

  Theorem apply_cse_free : cse_contract is_ret cse -> forall ds ok,
    (forall i, In i (all_syms ds) -> ~ In i (names ds)) ->
    free_ok ok ds -> free_ok ok (apply_cse cse ds).
  Proof.
    intros Hc ds ok G1 H. unfold apply_cse.
    assert (Hall : forall i, In i (all_syms ds) -> ok i).
    { intros i Hi. destruct (free_ok_syms ds ok H i Hi) as [Hk|Hk]; [exact Hk|]. destruct (G1 i Hi Hk). }
    apply free_ok_app.
    - eapply free_ok_mono; [|exact (cse_repl_syms _ _ Hc (exprs ds))]. exact Hall.
    - apply free_ok_combine. intros e He i Hi.
      destruct (cse_red_syms _ _ Hc (exprs ds) e i He Hi) as [Hk|Hk]; [left; now apply Hall|now right].
  Qed.

  Theorem apply_cse_keeps : cse_contract is_ret cse -> forall ds r,
    In r (names ds) -> In r (names (apply_cse cse ds)).
  Proof. intros Hc ds r Hr. rewrite (names_apply_cse Hc). apply in_or_app. now right. Qed.

  Lemma merge_output_guards : simp_syms simp -> cse_contract is_ret cse -> forall ds, no_ret_read ds ->
    let ms := merge_expressions simp is_ret ds in
    (forall i, In i (all_syms ms) -> ~ In i (names ms)) /\
    (forall s, In s (names ms) -> ~ In s (names (fst (cse (exprs ms))))).
  Proof.
    intros Hss Hc ds Hn ms. unfold ms, merge_expressions. split.
    - intros i Hi Hin. rewrite names_merge_go in Hin. apply filter_In in Hin as [Hin Hr].
      refine (Hn i Hin Hr (all_syms_merge_go Hss (fun k => In k (all_syms ds)) ds [] _ _ i Hi));
        [trivial|intros k []].
    - intros s Hin Hrep. rewrite names_merge_go in Hin. apply filter_In in Hin as [_ Hr].
      rewrite (cse_notret _ _ Hc _ _ Hrep) in Hr. discriminate Hr.
  Qed.

End Lists.

Lemma memb_in i l : memb i l = true <-> In i l.
Proof.
  unfold memb. rewrite existsb_exists. split.
  - intros [x [Hx He]]. apply Nat.eqb_eq in He. now subst.
  - intros H. exists i. split; [exact H|apply Nat.eqb_refl].
Qed.

(* guard of defaultOptimizer *)
Definition no_ret_readb (is_ret : nat -> bool) (ds : defs) : bool :=
  forallb (fun i => negb (is_ret i && memb i (names ds))) (all_syms ds).

Lemma no_def_readb_ok ds : no_def_readb ds = true -> forall i, In i (all_syms ds) -> ~ In i (names ds).
Proof.
  unfold no_def_readb. rewrite forallb_forall. intros H i Hi Hn. specialize (H i Hi).
  apply memb_in in Hn. rewrite Hn in H. discriminate H.
Qed.

Lemma no_ret_readb_ok is_ret ds : no_ret_readb is_ret ds = true -> no_ret_read is_ret ds.
Proof.
  unfold no_ret_readb, no_ret_read. rewrite forallb_forall. intros H r Hn Hr Hi. specialize (H r Hi).
  apply memb_in in Hn. rewrite Hn, Hr in H. discriminate H.
Qed.

(* sympy.cse with an exclusion list for the replacement names *)
Definition csex_contract (is_ret : nat -> bool) (cse : list nat -> list bexp -> defs * list bexp) : Prop :=
  forall ex, cse_contract is_ret (cse ex) /\
             forall es s, In s (names (fst (cse ex es))) -> ~ In s ex.

Section Profiles.
  Variable simp : bexp -> bexp.
  Variable cse : list nat -> list bexp -> defs * list bexp.
  Variable is_ret : nat -> bool.
  Variable disable_or : bool.

  (* apply_cse as repaired (fix 0ecd3ac): every list *)
  Theorem apply_cse_guarded_preserves : csex_contract is_ret cse -> forall ds env j,
    (~ In j (names (fst (cse (names ds) (exprs ds)))) \/ is_ret j = true) ->
    run_defs env (apply_cse_guarded cse ds) j = run_defs env ds j.
  Proof.
    intros Hc ds env j Hj. unfold apply_cse_guarded. destruct (no_def_readb ds) eqn:Hg; [|reflexivity].
    destruct (Hc (names ds)) as [Hc1 Hex].
    assert (G2 : forall s, In s (names ds) -> ~ In s (names (fst (cse (names ds) (exprs ds))))).
    { intros s Hs Hr. exact (Hex _ _ Hr Hs). }
    apply (apply_cse_partial _ _ Hc1); [exact (no_def_readb_ok ds Hg)|exact G2|exact Hj].
  Qed.

  Theorem apply_cse_guarded_symbols : csex_contract is_ret cse -> forall ds,
    (forall ok, free_ok ok ds -> free_ok ok (apply_cse_guarded cse ds)) /\
    (forall r, In r (names ds) -> In r (names (apply_cse_guarded cse ds))).
  Proof.
    intros Hc ds. unfold apply_cse_guarded. destruct (no_def_readb ds) eqn:Hg; [|split; intros; assumption].
    destruct (Hc (names ds)) as [Hc1 _]. split.
    - intros ok H. apply (apply_cse_free _ _ Hc1); [exact (no_def_readb_ok ds Hg)|exact H].
    - intros r Hr. now apply (apply_cse_keeps _ _ Hc1).
  Qed.

  Notation step_fun := (apply_step simp cse is_ret disable_or).
  Notation profile_fun := (apply_profile simp cse is_ret disable_or).

  (* ds' defines the symbols of ds, every one with the function it has in ds, and
     reads no symbol ds may not read *)
  Definition same_defs (ds' ds : defs) : Prop :=
    (forall env j, run_defs env ds' j = run_defs env ds j) /\
    (forall ok, free_ok ok ds -> free_ok ok ds') /\ names ds' = names ds.

  Lemma transformer_step_same st : is_transformer st = true -> forall ds, same_defs (step_fun st ds) ds.
  Proof.
    assert (H : forall T, (forall e, refines (T e) e) -> forall ds, same_defs (map_defs T ds) ds).
    { intros T HT ds. split; [|split; [|apply names_map_defs]].
      - apply run_defs_map_defs. intros env e. apply refines_beval, HT.
      - apply free_ok_map_defs. intros P e. apply refines_reads, HT. }
    destruct st; try discriminate; intros _; cbn [apply_step]; apply H.
    - apply remove_ITE_refines.
    - apply remove_Implies_refines.
    - apply or2xor_refines.
    - apply or2and_refines.
    - apply remove_obvious_refines.
  Qed.

  Lemma profile_cons st steps ds : profile_fun (st :: steps) ds = profile_fun steps (step_fun st ds).
  Proof. reflexivity. Qed.

  Lemma transformers_same steps : forallb is_transformer steps = true ->
    forall ds, same_defs (profile_fun steps ds) ds.
  Proof.
    induction steps as [|st steps IH]; intros H ds; [now repeat split|].
    cbn [forallb] in H. apply andb_true_iff in H as [H1 H2]. rewrite profile_cons.
    destruct (IH H2 (step_fun st ds)) as (I1 & I2 & I3), (transformer_step_same st H1 ds) as (J1 & J2 & J3).
    split; [|split].
    - intros env j. now rewrite I1.
    - intros ok Hf. apply I2, J2, Hf.
    - now rewrite I3.
  Qed.

  Lemma forallb_firstn {A} (p : A -> bool) (l : list A) : forall k,
    forallb p l = true -> forallb p (firstn k l) = true.
  Proof.
    induction l as [|x l IH]; intros [|k] H; try reflexivity.
    cbn [firstn forallb] in *. apply andb_true_iff in H as [H1 H2]. now rewrite H1, IH.
  Qed.

  (* fastOptimizer and every prefix of it: every symbol keeps its function *)
  Theorem fast_profile_same k ds : same_defs (profile_fun (firstn k fast_profile) ds) ds.
  Proof. apply transformers_same, forallb_firstn. reflexivity. Qed.

  (* Both default profiles are merge_expressions, a cse step [c], fastOptimizer:
     what merge_expressions and fastOptimizer keep, every prefix keeps if the cse
     step keeps it on the merged list *)
  Lemma merge_cse_fast_sem c k ds env j : simp_sem simp -> ret_fresh is_ret [] ds -> is_ret j = true ->
    run_defs env (step_fun c (merge_expressions simp is_ret ds)) j = run_defs env (merge_expressions simp is_ret ds) j ->
    run_defs env (profile_fun (firstn k (S_merge :: c :: fast_profile)) ds) j = run_defs env ds j.
  Proof.
    intros Hs Hf Hj Hc. destruct k as [|k]; [reflexivity|]. cbn [firstn]. rewrite profile_cons. cbn [apply_step].
    rewrite <- (merge_preserves simp is_ret Hs ds Hf env j Hj).
    destruct k as [|k]; [reflexivity|]. cbn [firstn]. rewrite profile_cons.
    now rewrite (proj1 (fast_profile_same k _)).
  Qed.

  Lemma merge_cse_fast_symbols c k ds : simp_syms simp ->
    (forall ok, free_ok ok (merge_expressions simp is_ret ds) -> free_ok ok (step_fun c (merge_expressions simp is_ret ds))) ->
    (forall r, In r (names (merge_expressions simp is_ret ds)) -> In r (names (step_fun c (merge_expressions simp is_ret ds)))) ->
    (forall ok, free_ok ok ds -> free_ok ok (profile_fun (firstn k (S_merge :: c :: fast_profile)) ds)) /\
    (forall r, is_ret r = true -> In r (names ds) ->
       In r (names (profile_fun (firstn k (S_merge :: c :: fast_profile)) ds))).
  Proof.
    intros Hss Hf Hk. destruct k as [|k]; [split; [intros ok H; exact H|intros r _ H; exact H]|].
    cbn [firstn]. rewrite profile_cons. cbn [apply_step]. destruct k as [|k]; cbn [firstn].
    - split; [intros ok H; now apply merge_free|intros r Hr H; now apply merge_keeps_ret].
    - rewrite profile_cons. destruct (fast_profile_same k (step_fun c (merge_expressions simp is_ret ds))) as (_ & Hf' & ->).
      split; [intros ok H; apply Hf', Hf; now apply merge_free|intros r Hr H; apply Hk; now apply merge_keeps_ret].
  Qed.
End Profiles.

(* well-formed lists over n inputs: an expression reads only inputs (index < n)
   and symbols defined earlier in the list (an input may be re-defined, as the
   front end does for re-assigned arguments); a _ret symbol is not an input and
   is defined once *)
Fixpoint wf_go (n : nat) (is_ret : nat -> bool) (defined : list nat) (ds : defs) : bool :=
  match ds with
  | [] => true
  | (s, e) :: r =>
      forallb (fun i => Nat.ltb i n || memb i defined) (bsyms e) &&
      negb (is_ret s && (Nat.ltb s n || memb s defined)) &&
      wf_go n is_ret (s :: defined) r
  end.
Definition wf_defsb (n : nat) (is_ret : nat -> bool) (ds : defs) : bool := wf_go n is_ret [] ds.

Lemma ltb_or_memb n defined i : Nat.ltb i n || memb i defined = true <-> i < n \/ In i defined.
Proof. now rewrite orb_true_iff, Nat.ltb_lt, memb_in. Qed.

Lemma wf_go_fresh n is_ret : forall ds defined seen,
  (forall i, In i seen -> i < n \/ In i defined) ->
  wf_go n is_ret defined ds = true -> ret_fresh is_ret seen ds.
Proof.
  induction ds as [|[s e] r IH]; intros defined seen Hseen H; [exact I|].
  cbn [wf_go] in H. apply andb_true_iff in H as [H H3]. apply andb_true_iff in H as [H1 H2].
  rewrite forallb_forall in H1. cbn [ret_fresh]. split.
  - intros Hs Hin. rewrite Hs in H2. apply negb_true_iff in H2.
    apply Hseen, ltb_or_memb in Hin. cbn [andb] in H2. congruence.
  - apply (IH (s :: defined)); [|exact H3]. intros i Hi. apply in_app_iff in Hi as [Hi|Hi].
    + apply H1, ltb_or_memb in Hi. cbn [In]. tauto.
    + destruct (Hseen i Hi); cbn [In]; tauto.
Qed.

Theorem wf_ret_fresh n is_ret ds : wf_defsb n is_ret ds = true -> ret_fresh is_ret [] ds.
Proof. intros H. apply (wf_go_fresh n is_ret ds [] []); [intros i []|exact H]. Qed.

Lemma wf_go_free n is_ret : forall ds defined,
  wf_go n is_ret defined ds = true -> free_ok (fun i => i < n \/ In i defined) ds.
Proof.
  induction ds as [|[s e] r IH]; intros defined H; [exact I|].
  cbn [wf_go] in H. apply andb_true_iff in H as [H H3]. apply andb_true_iff in H as [H1 _].
  rewrite forallb_forall in H1. cbn [free_ok]. split.
  - intros i Hi. apply ltb_or_memb, H1, Hi.
  - apply (free_ok_mono r (fun i => i < n \/ In i (s :: defined))); [|exact (IH _ H3)].
    intros i [Hi|[Hi|Hi]]; [left; now left|now right|left; now right].
Qed.

Theorem wf_free_ok n is_ret ds : wf_defsb n is_ret ds = true -> free_ok (fun i => i < n) ds.
Proof.
  intros H. eapply free_ok_mono; [|exact (wf_go_free n is_ret ds [] H)]. intros i [Hi|[]]; exact Hi.
Qed.

(* The statements without the guards are false of the model: a cse oracle that
   satisfies the whole contract, and a list in which the third and second
   expressions share the sub-expression (r0 xor c) where r0 is defined by the
   first.  The replacement x0 = r0 xor c is placed in front of the list and
   reads r0 before its definition.  Symbols: a b c d = 0 1 2 3, r0 r1 r2 = 5 6 7
   (all _ret), x0 = 8. *)
Definition w_is_ret (i : nat) : bool := Nat.eqb i 5 || Nat.eqb i 6 || Nat.eqb i 7.
Definition w_es : list bexp :=
  [BAnd [BSym 0; BSym 1]; BAnd [BSym 3; BXor [BSym 5; BSym 2]]; BOr [BSym 3; BXor [BSym 5; BSym 2]]].
Definition w_repl : defs := [(8, BXor [BSym 5; BSym 2])].
Definition w_red : list bexp :=
  [BAnd [BSym 0; BSym 1]; BAnd [BSym 3; BSym 8]; BOr [BSym 3; BSym 8]].
Definition w_cse (es : list bexp) : defs * list bexp :=
  if list_eqb bexp_eqb es w_es then (w_repl, w_red) else ([], es).
Definition w_ds : defs := combine [5; 6; 7] w_es.
Definition w_env (i : nat) : bool := match i with 0 | 1 | 3 => true | _ => false end.

Lemma w_cse_cases es : es = w_es /\ w_cse es = (w_repl, w_red) \/ w_cse es = ([], es).
Proof.
  unfold w_cse. destruct (list_eqb bexp_eqb es w_es) eqn:E; [left|now right].
  split; [exact (list_bexp_eqb_eq _ _ E)|reflexivity].
Qed.

Lemma w_cse_contract : cse_contract w_is_ret w_cse.
Proof.
  split; intros es; destruct (w_cse_cases es) as [[-> ->]| ->]; cbn [fst snd].
  - reflexivity.
  - reflexivity.
  - intros env k. destruct k as [|[|[|[|k]]]]; reflexivity.
  - reflexivity.
  - intros s [<-|[]]. reflexivity.
  - intros s [].
  - split; [|exact I]. intros i [<-|[<-|[]]]; cbn; tauto.
  - exact I.
  - intros e i [<-|[<-|[<-|[]]]] Hi; cbn in Hi; repeat (destruct Hi as [<-|Hi]); try destruct Hi;
      (left; apply memb_in; reflexivity) || (right; now left).
  - intros e i He Hi. left. apply in_flat_map. now exists e.
Qed.

(* the witness list is well formed: wf_defsb decides it by evaluation *)
Lemma w_ds_free : free_ok (fun i => i < 4) w_ds.
Proof. exact (wf_free_ok 4 w_is_ret w_ds eq_refl). Qed.

(* before fix 351a1a5 transform_or2xor turned (a&b&c)|(~a&~b&~c) into ~(a^b) *)
Definition w_or3 : bexp :=
  BOr [BAnd [BSym 0; BSym 1; BSym 2]; BAnd [BNot (BSym 0); BNot (BSym 1); BNot (BSym 2)]].
