(* Bits.v — little-endian bit lists and their numeric value: the list functions against
   mod, div, comparison and the bitwise operations of N, with the plain list facts they need. *)
From Coq Require Import List Bool NArith Arith Lia.
Import ListNotations.
Local Open Scope N_scope.

Local Notation pw n := (2 ^ N.of_nat n).

Lemma pow2_S n : pw (S n) = 2 * pw n.
Proof. now rewrite Nat2N.inj_succ, N.pow_succ_r'. Qed.
Lemma pow2_nz n : pw n <> 0.
Proof. apply N.pow_nonzero. discriminate. Qed.
Lemma pow2_pos n : 0 < pw n.
Proof. apply N.neq_0_lt_0, pow2_nz. Qed.

Lemma ones_bits m j : N.testbit (N.ones m) j = (j <? m).
Proof.
  destruct (N.ltb_spec j m) as [H|H]; [now apply N.ones_spec_low|now apply N.ones_spec_high].
Qed.

(* value of a little-endian list of booleans *)
Fixpoint bits_val (l : list bool) : N :=
  match l with
  | [] => 0
  | b :: r => N.b2n b + 2 * bits_val r
  end.

(* the [w] low bits of [n], little-endian *)
Fixpoint nbits (w : nat) (n : N) : list bool :=
  match w with
  | O => []
  | S w' => N.odd n :: nbits w' (N.div2 n)
  end.

Lemma nbits_length w n : length (nbits w n) = w.
Proof. revert n; induction w as [|w IH]; intros n; cbn [nbits length]; [reflexivity|now rewrite IH]. Qed.

Lemma bits_val_bound l : bits_val l < 2 ^ N.of_nat (length l).
Proof.
  induction l as [|b r IH]; cbn [bits_val length].
  - cbn. lia.
  - rewrite pow2_S. destruct b; cbn [N.b2n]; lia.
Qed.

Lemma nbits_bits_val l : nbits (length l) (bits_val l) = l.
Proof.
  induction l as [|b r IH]; cbn [bits_val length nbits]; [reflexivity|].
  f_equal.
  - rewrite N.odd_add_mul_2. now destruct b.
  - now rewrite N.div2_div, N.add_b2n_double_div2.
Qed.

Lemma bits_val_nbits w n : bits_val (nbits w n) = n mod 2 ^ N.of_nat w.
Proof.
  revert n; induction w as [|w IH]; intros n; cbn [nbits bits_val].
  - cbn. now rewrite N.mod_1_r.
  - rewrite IH, pow2_S, N.div2_div.
    pose proof (pow2_nz w). rewrite N.mod_mul_r by lia.
    rewrite <- N.bit0_mod, N.bit0_odd. reflexivity.
Qed.

Lemma bits_val_nbits_small w n : n < 2 ^ N.of_nat w -> bits_val (nbits w n) = n.
Proof. intros H. rewrite bits_val_nbits. now apply N.mod_small. Qed.

Lemma nbits_testbit w n k : (k < w)%nat -> nth k (nbits w n) false = N.testbit n (N.of_nat k).
Proof.
  revert n k; induction w as [|w IH]; intros n k Hk; [lia|].
  cbn [nbits]. destruct k as [|k]; cbn [nth].
  - now rewrite N.bit0_odd.
  - rewrite IH by lia. rewrite Nat2N.inj_succ, N.div2_spec, N.shiftr_spec by lia.
    f_equal. lia.
Qed.

Lemma bits_val_app a b : bits_val (a ++ b) = bits_val a + 2 ^ N.of_nat (length a) * bits_val b.
Proof.
  induction a as [|x a IH]; cbn [app bits_val length].
  - change (N.of_nat 0) with 0. rewrite N.pow_0_r. lia.
  - rewrite IH, pow2_S. lia.
Qed.

Lemma bits_val_repeat_false k : bits_val (repeat false k) = 0.
Proof. induction k as [|k IH]; cbn [repeat bits_val N.b2n]; [reflexivity|rewrite IH; reflexivity]. Qed.

Lemma bits_val_inj a b : length a = length b -> bits_val a = bits_val b -> a = b.
Proof.
  intros Hl Hv. rewrite <- (nbits_bits_val a), <- (nbits_bits_val b). now rewrite Hl, Hv.
Qed.

(* big-endian (most significant first) digits of n, as Python's bin(n)[2:] *)
Definition bin_digits (n : N) : list bool :=
  match n with
  | 0 => [false]
  | _ => rev (nbits (N.to_nat (N.size n)) n)
  end.

(* A little-endian list denotes  bit + 2 * rest : how mod, comparison and the
   bitwise operations of N act on a number of that shape. *)
Lemma b2n_lt2 b : N.b2n b < 2.
Proof. destruct b; cbn; lia. Qed.

Lemma add_double_mod k z m : k < 2 -> 0 < m -> k + 2 * (z mod m) = (k + 2 * z) mod (2 * m).
Proof.
  intros Hk Hm.
  pose proof (N.div_mod z m ltac:(lia)) as Hz.
  pose proof (N.mod_lt z m ltac:(lia)) as Hr.
  set (q := z / m) in *. set (r := z mod m) in *.
  apply (N.mod_unique _ _ q); [lia|]. rewrite Hz. lia.
Qed.

(* the higher parts decide, the front bits break a tie *)
Lemma compare_cons a b X Y :
  (N.b2n a + 2 * X ?= N.b2n b + 2 * Y) = match X ?= Y with Eq => N.b2n a ?= N.b2n b | c => c end.
Proof.
  pose proof (b2n_lt2 a). pose proof (b2n_lt2 b).
  destruct (N.compare_spec X Y) as [->|H1|H1]; [destruct (N.compare_spec (N.b2n a) (N.b2n b)) as [->|H1|H1]| |].
  - apply N.compare_refl.
  - apply N.compare_lt_iff. lia.
  - apply N.compare_gt_iff. lia.
  - apply N.compare_lt_iff. lia.
  - apply N.compare_gt_iff. lia.
Qed.

Lemma eqb_cons a b X Y : (N.b2n a + 2 * X =? N.b2n b + 2 * Y) = Bool.eqb a b && (X =? Y).
Proof. rewrite !N.eqb_compare, compare_cons. destruct (X ?= Y), a, b; reflexivity. Qed.

(* b + 2Y < a + 2X, in the order of QintImp.gt's `a and not b` *)
Lemma ltb_cons a b X Y :
  (N.b2n b + 2 * Y <? N.b2n a + 2 * X) = (Y <? X) || ((X =? Y) && (a && negb b)).
Proof.
  unfold N.ltb. rewrite N.eqb_compare, compare_cons, (N.compare_antisym X Y).
  destruct (X ?= Y), a, b; reflexivity.
Qed.

(* "less" from "greater" and "equal", as QintImp.lt computes it *)
Lemma ltb_of_gt_eq x y : negb (y <? x) && negb (x =? y) = (x <? y).
Proof.
  unfold N.ltb. rewrite N.eqb_compare, (N.compare_antisym x y). destruct (x ?= y); reflexivity.
Qed.

(* X < P and Y < Q compared through their parts below and above the other's bound:
   the shape QintImp.gt computes (the zipped part, then the tail of either operand) *)
Lemma gt_tails X Y P Q : X < P -> Y < Q ->
  ((Y mod P <? X mod Q) || negb (X / Q =? 0)) && (Y / P =? 0) = (Y <? X).
Proof.
  intros HX HY. destruct (N.le_ge_cases Q P) as [H|H].
  - (* Y is below both bounds: X's part below Q decides unless X has a part above *)
    rewrite (N.mod_small Y P), (N.div_small Y P), andb_true_r by lia.
    pose proof (N.div_mod X Q ltac:(lia)) as E. set (q := X / Q) in *. set (r := X mod Q) in *.
    destruct (N.eqb_spec q 0) as [Z|Z]; cbn [negb].
    + rewrite orb_false_r. f_equal. rewrite Z in E. lia.
    + rewrite orb_true_r. symmetry. apply N.ltb_lt. nia.
  - rewrite (N.mod_small X Q), (N.div_small X Q), orb_false_r by lia.
    pose proof (N.div_mod Y P ltac:(lia)) as E. set (q := Y / P) in *. set (r := Y mod P) in *.
    destruct (N.eqb_spec q 0) as [Z|Z].
    + rewrite andb_true_r. f_equal. rewrite Z in E. lia.
    + rewrite andb_false_r. symmetry. apply N.ltb_ge. nia.
Qed.

Lemma testbit_cons a X n :
  N.testbit (N.b2n a + 2 * X) n = if n =? 0 then a else N.testbit X (N.pred n).
Proof.
  rewrite N.add_comm. destruct (N.eqb_spec n 0) as [->|Hn].
  - apply N.testbit_0_r.
  - rewrite <- (N.succ_pred n Hn) at 1. apply N.testbit_succ_r.
Qed.

(* a bitwise operation F of N, given by what it does at each bit *)
Section BitOp.
  Variables (f : bool -> bool -> bool) (F : N -> N -> N).
  Hypothesis F_spec : forall x y n, N.testbit (F x y) n = f (N.testbit x n) (N.testbit y n).

  Lemma bitop_cons a b X Y : F (N.b2n a + 2 * X) (N.b2n b + 2 * Y) = N.b2n (f a b) + 2 * F X Y.
  Proof.
    apply N.bits_inj. intros n. rewrite F_spec, !testbit_cons.
    destruct (n =? 0); [reflexivity|now rewrite F_spec].
  Qed.

  Lemma bits_val_zipop x y : f false false = false -> length x = length y ->
    bits_val (map (fun p => f (fst p) (snd p)) (combine x y)) = F (bits_val x) (bits_val y).
  Proof.
    intros Hff. revert y; induction x as [|a x IH]; intros [|b y] H; cbn [length] in H; try discriminate.
    - apply N.bits_inj. intros n. now rewrite F_spec.
    - cbn [combine map bits_val fst snd]. rewrite bitop_cons, IH by lia. reflexivity.
  Qed.
End BitOp.

Lemma ones_succ n : N.ones (N.succ n) = 1 + 2 * N.ones n.
Proof. rewrite <- N.add_1_l, N.ones_add. apply N.add_comm. Qed.

(* ~(~a + b) at width P = 2^w is a - b modulo P *)
Lemma sub_arith a b P : a < P -> b < P -> P - 1 - ((P - 1 - a + b) mod P) = (a + P - b) mod P.
Proof.
  intros Ha Hb.
  (* with P = d + a + 1 and the difference of a and b as a number c, no subtraction is left *)
  destruct (N.le_exists_sub (a + 1) P) as (d & E & _); [lia|].
  replace (P - 1 - a) with d by lia.
  destruct (N.le_gt_cases b a) as [H|H].
  - destruct (N.le_exists_sub b a H) as (c & -> & _).
    rewrite (N.mod_small (d + b)) by lia. apply (N.mod_unique _ _ 1); lia.
  - destruct (N.le_exists_sub (a + 1) b) as (c & -> & _); [lia|].
    rewrite <- (N.mod_unique (d + (c + (a + 1))) P 1 c) by lia. apply (N.mod_unique _ _ 0); lia.
Qed.

Lemma bits_val_firstn w l : bits_val (firstn w l) = bits_val l mod pw w.
Proof.
  revert l; induction w as [|w IH]; intros l.
  - cbn [firstn bits_val]. change (pw 0) with 1. now rewrite N.mod_1_r.
  - destruct l as [|b r]; cbn [firstn bits_val].
    + symmetry. apply N.mod_0_l. apply pow2_nz.
    + rewrite IH, pow2_S. apply add_double_mod; [apply b2n_lt2|apply pow2_pos].
Qed.

Lemma bits_val_skipn k l : bits_val (skipn k l) = bits_val l / pw k.
Proof.
  revert l; induction k as [|k IH]; intros l.
  - cbn [skipn]. change (pw 0) with 1. now rewrite N.div_1_r.
  - destruct l as [|b r]; cbn [skipn bits_val].
    + symmetry. apply N.div_0_l. apply pow2_nz.
    + rewrite IH, pow2_S. rewrite <- N.div_div by (try apply pow2_nz; lia).
      now rewrite N.add_b2n_double_div2.
Qed.

(* zip truncates to the shorter list *)
Lemma map_fst_combine {A B} (x : list A) (y : list B) : map fst (combine x y) = firstn (length y) x.
Proof.
  revert y; induction x as [|a x IH]; intros [|b y]; cbn [combine map length firstn fst]; try reflexivity.
  now rewrite IH.
Qed.

Lemma map_snd_combine {A B} (x : list A) (y : list B) : map snd (combine x y) = firstn (length x) y.
Proof.
  revert y; induction x as [|a x IH]; intros [|b y]; cbn [combine map length firstn snd]; try reflexivity.
  now rewrite IH.
Qed.

Lemma combine_map {A B C D} (f : A -> C) (g : B -> D) l r :
  combine (map f l) (map g r) = map (fun xy => (f (fst xy), g (snd xy))) (combine l r).
Proof.
  revert r; induction l as [|a l IH]; intros [|b r]; cbn [map combine]; try reflexivity.
  now rewrite IH.
Qed.

Lemma forallb_rev {A} (p : A -> bool) l : forallb p (rev l) = forallb p l.
Proof.
  induction l as [|x l IH]; cbn [rev forallb]; [reflexivity|].
  rewrite forallb_app, IH. cbn [forallb]. rewrite andb_true_r. apply andb_comm.
Qed.

Lemma forallb_negb_zero l : forallb negb l = (bits_val l =? 0).
Proof.
  induction l as [|b l IH]; cbn [forallb bits_val]; [reflexivity|].
  rewrite IH. change (negb b) with (Bool.eqb b false). apply (eq_sym (eqb_cons b false _ 0)).
Qed.

Lemma firstn_S_nth {A} (d : A) l j : (j < length l)%nat -> firstn (S j) l = firstn j l ++ [nth j l d].
Proof.
  revert l; induction j as [|j IH]; intros [|x l] H; cbn [length] in H; try lia.
  - reflexivity.
  - cbn [firstn nth app]. f_equal. apply IH. lia.
Qed.

Definition eqb2 (xy : bool * bool) : bool := Bool.eqb (fst xy) (snd xy).

Lemma forallb_eqb2_eq x y : length x = length y -> (forallb eqb2 (combine x y) = true <-> x = y).
Proof.
  revert y; induction x as [|a x IH]; intros [|b y] H; try discriminate H; cbn [combine forallb]; [now split|].
  unfold eqb2 at 1. cbn [fst snd]. rewrite andb_true_iff, Bool.eqb_true_iff, (IH y) by (now injection H).
  split; [intros [-> ->]; reflexivity|intros [= -> ->]; now split].
Qed.

(* equality of the values of two bit lists of any two lengths; eq_sem_zip gives it the shape
   QintImp.eq computes: the zipped part, then the tail of either operand is zero *)
Fixpoint eq_sem (x y : list bool) : bool :=
  match x, y with
  | [], _ => bits_val y =? 0
  | _, [] => bits_val x =? 0
  | a :: x', b :: y' => Bool.eqb a b && eq_sem x' y'
  end.

Lemma eq_sem_spec x y : eq_sem x y = (bits_val x =? bits_val y).
Proof.
  revert y; induction x as [|a x IH]; intros [|b y]; cbn [eq_sem bits_val].
  - reflexivity.
  - apply N.eqb_sym.
  - reflexivity.
  - now rewrite IH, eqb_cons.
Qed.

Lemma eq_sem_zip x y :
  eq_sem x y = forallb eqb2 (combine x y) && (bits_val (skipn (length y) x) =? 0)
               && (bits_val (skipn (length x) y) =? 0).
Proof.
  revert y; induction x as [|a x IH]; intros [|b y]; cbn [eq_sem combine forallb length skipn].
  - reflexivity.
  - reflexivity.
  - cbn [bits_val N.eqb andb]. now rewrite andb_true_r.
  - rewrite IH. unfold eqb2 at 2. cbn [fst snd]. now rewrite !andb_assoc.
Qed.

Lemma bits_val_eqb_iff x y : length x = length y -> ((bits_val x =? bits_val y) = true <-> x = y).
Proof.
  intros H. rewrite N.eqb_eq. split; [now apply bits_val_inj|now intros ->].
Qed.

Lemma list_sum_cons a l : list_sum (a :: l) = (a + list_sum l)%nat.
Proof. reflexivity. Qed.

Lemma combine_app {A B} (a1 a2 : list A) (b1 b2 : list B) : length a1 = length b1 ->
  combine (a1 ++ a2) (b1 ++ b2) = combine a1 b1 ++ combine a2 b2.
Proof.
  revert b1; induction a1 as [|x a1 IH]; intros [|y b1] H; cbn in *; try discriminate; [reflexivity|].
  f_equal. apply IH. now injection H.
Qed.

Lemma forallb_combine_split {A} (f : A * A -> bool) n (x y : list A) :
  length (firstn n x) = length (firstn n y) ->
  forallb f (combine x y) = forallb f (combine (firstn n x) (firstn n y)) && forallb f (combine (skipn n x) (skipn n y)).
Proof.
  intros H. rewrite <- (firstn_skipn n x) at 1. rewrite <- (firstn_skipn n y) at 1.
  rewrite combine_app by exact H. apply forallb_app.
Qed.

Lemma NoDup_app_intro {A} (a b : list A) : NoDup a -> NoDup b -> (forall x, In x a -> ~ In x b) -> NoDup (a ++ b).
Proof.
  induction a as [|x a IH]; intros Ha Hb Hd; [exact Hb|]. cbn [app]. inversion Ha as [|? ? Hx Ha']; subst.
  constructor.
  - rewrite in_app_iff. intros [H|H]; [now apply Hx|]. apply (Hd x); [now left|exact H].
  - apply IH; [exact Ha'|exact Hb|]. intros y Hy. apply Hd. now right.
Qed.

Lemma Forall2_imp {A B} (R R' : A -> B -> Prop) l l' :
  (forall a b, R a b -> R' a b) -> Forall2 R l l' -> Forall2 R' l l'.
Proof. induction 2; constructor; auto. Qed.

Lemma NoDup_snoc {A} (l : list A) p : NoDup l -> ~ In p l -> NoDup (l ++ [p]).
Proof.
  intros Hn Hp. apply NoDup_app_intro; [exact Hn|apply NoDup_cons; [intros []|constructor]|].
  intros x Hx [<-|[]]. contradiction.
Qed.

Lemma NoDup_map_inj {A B} (f : A -> B) l : (forall x y, f x = f y -> x = y) -> NoDup l -> NoDup (map f l).
Proof.
  intros Hf. induction 1 as [|x l Hx _ IH]; cbn [map]; constructor; [|exact IH].
  intros H. apply in_map_iff in H as (y & E & Hy). apply Hf in E. now subst.
Qed.

Lemma nth_map_seq {A} (F : nat -> A) d n q : (q < n)%nat -> nth q (map F (seq 0 n)) d = F q.
Proof.
  intros H. rewrite (nth_indep _ d (F 0%nat)) by (rewrite map_length, seq_length; exact H).
  now rewrite map_nth, seq_nth.
Qed.

Lemma nth_map_lt {A} (f : A -> bool) (l : list A) d k : (k < length l)%nat -> nth k (map f l) false = f (nth k l d).
Proof. intros H. rewrite (nth_indep _ false (f d)) by (now rewrite map_length). apply map_nth. Qed.

Lemma fold_xorb_app a b : fold_right xorb false (a ++ [b]) = xorb (fold_right xorb false a) b.
Proof.
  induction a as [|x a IH]; cbn [app fold_right]; [apply xorb_comm|].
  rewrite IH. now rewrite xorb_assoc.
Qed.
