(* P_Export.v — proofs about M_Export.v: the QASM parser inverts the printer
   (tokens, lines and text); the header has one formal per qubit in index order
   (before fix 76cffb7 it had not when the qubit map has aliases); the
   Qiskit / Cirq / Sympy dispatches emit exactly one op per non-nop gate with
   the gate's own qubit list. *)
From Coq Require Import List Bool NArith ZArith Arith String Ascii Lia DecimalString.
From QV Require Import Circ M_Export.
Import ListNotations.
Local Open Scope string_scope.

Fixpoint has_char (c : ascii) (s : string) : bool :=
  match s with
  | EmptyString => false
  | String a r => Ascii.eqb a c || has_char c r
  end.

Lemma app_nil_r_s s : s ++ "" = s.
Proof. induction s as [|a s IH]; cbn; [reflexivity|now rewrite IH]. Qed.
Lemma app_assoc_s a b c : (a ++ b) ++ c = a ++ (b ++ c).
Proof. induction a as [|x a IH]; cbn; [reflexivity|now rewrite IH]. Qed.
Lemma has_char_app c a b : has_char c (a ++ b) = has_char c a || has_char c b.
Proof. induction a as [|x a IH]; cbn; [reflexivity|now rewrite IH, orb_assoc]. Qed.

Lemma split_nochar c s : has_char c s = false -> split c s = [s].
Proof.
  induction s as [|a s IH]; cbn [has_char split]; [reflexivity|].
  intros H. apply orb_false_elim in H as [H1 H2]. rewrite H1, (IH H2). reflexivity.
Qed.

Lemma split_app c a b : has_char c a = false -> split c (a ++ String c b) = a :: split c b.
Proof.
  induction a as [|x a IH]; cbn [has_char append split]; intros H.
  - now rewrite Ascii.eqb_refl.
  - apply orb_false_elim in H as [H1 H2]. rewrite H1, (IH H2). reflexivity.
Qed.

Lemma join_cons sep x y r : join sep (x :: y :: r) = x ++ sep ++ join sep (y :: r).
Proof. reflexivity. Qed.

Lemma split_join c l : l <> [] -> Forall (fun t => has_char c t = false) l ->
  split c (join (String c "") l) = l.
Proof.
  induction l as [|x [|y r] IH]; intros Hne H; [contradiction| |]; inversion H as [|? ? Hx Hr]; subst.
  - now apply split_nochar.
  - rewrite join_cons. cbn [append]. rewrite split_app by exact Hx. f_equal.
    apply IH; [discriminate|exact Hr].
Qed.

Lemma has_char_join c sep l : has_char c sep = false ->
  Forall (fun t => has_char c t = false) l -> has_char c (join sep l) = false.
Proof.
  intros Hs. induction l as [|x [|y r] IH]; intros H; [reflexivity| |]; inversion H as [|? ? Hx Hr]; subst.
  - exact Hx.
  - now rewrite join_cons, !has_char_app, Hs, Hx, (IH Hr).
Qed.

Definition token_ok (t : string) : bool := negb (has_char SP t) && negb (has_char LF t).
Definition line_ok (l : list string) : bool :=
  match l with [] => false | _ => forallb token_ok l end.
Definition tokens_ok (ls : list (list string)) : bool := forallb line_ok ls.

Lemma render_cons l ls : render (l :: ls) = join " " l ++ String LF (render ls).
Proof.
  unfold render. cbn [map]. destruct ls as [|l2 ls2].
  - cbn [map concat]. reflexivity.
  - change (concat "" (render_line l :: map render_line (l2 :: ls2)))
      with (render_line l ++ "" ++ concat "" (map render_line (l2 :: ls2))).
    unfold render_line at 1. rewrite app_assoc_s. reflexivity.
Qed.

Lemma render_split ls : Forall (fun l => has_char LF (join " " l) = false) ls ->
  split LF (render ls) = (map (join " ") ls ++ [""])%list.
Proof.
  induction 1 as [|l ls Hl _ IH]; [reflexivity|].
  now rewrite render_cons, split_app, IH by exact Hl.
Qed.

Lemma token_ok_iff t : token_ok t = true <-> has_char SP t = false /\ has_char LF t = false.
Proof. unfold token_ok. now rewrite andb_true_iff, !negb_true_iff. Qed.

Lemma line_ok_tokens l : line_ok l = true ->
  l <> [] /\ Forall (fun t => has_char SP t = false) l /\ Forall (fun t => has_char LF t = false) l.
Proof.
  destruct l as [|t l]; [discriminate|]. unfold line_ok. rewrite forallb_forall. intros H.
  split; [discriminate|].
  split; apply Forall_forall; intros x Hx; apply H, token_ok_iff in Hx; tauto.
Qed.

Theorem tokenize_render ls : tokens_ok ls = true -> tokenize (render ls) = ls.
Proof.
  unfold tokens_ok, tokenize. rewrite forallb_forall. intros H.
  rewrite render_split, removelast_last, map_map.
  - rewrite <- (map_id ls) at 2. apply map_ext_in. intros l Hl.
    destruct (line_ok_tokens l (H l Hl)) as (Hne & Hsp & _). now apply (split_join SP).
  - apply Forall_forall. intros l Hl. destruct (line_ok_tokens l (H l Hl)) as (_ & _ & Hlf).
    now apply has_char_join.
Qed.

Fixpoint chars_in (cls : ascii -> bool) (s : string) : bool :=
  match s with
  | EmptyString => true
  | String a r => cls a && chars_in cls r
  end.

Lemma chars_in_has cls s c : chars_in cls s = true -> cls c = false -> has_char c s = false.
Proof.
  intros Hs Hc. induction s as [|a s IH]; cbn [chars_in has_char] in *; [reflexivity|].
  apply andb_prop in Hs as [Ha Hs]. rewrite (IH Hs), orb_false_r.
  destruct (Ascii.eqb_spec a c) as [->|_]; congruence.
Qed.

Definition digit (c : ascii) : bool := let n := nat_of_ascii c in Nat.leb 48 n && Nat.leb n 57.
Definition letter (c : ascii) : bool := let n := nat_of_ascii c in Nat.leb 97 n && Nat.leb n 122.

Lemma uint_digits d : chars_in digit (NilEmpty.string_of_uint d) = true.
Proof. induction d; cbn [NilEmpty.string_of_uint chars_in]; try rewrite IHd; reflexivity. Qed.

Lemma nat_str_chars c n : digit c = false -> has_char c (nat_str n) = false.
Proof. apply chars_in_has, uint_digits. Qed.

Lemma rep_c_letters n s : chars_in letter s = true -> chars_in letter (rep_c n s) = true.
Proof. intros H. induction n as [|n IH]; cbn [rep_c chars_in]; [exact H|now rewrite IH]. Qed.

Lemma qasm_name_letters k gn : qasm_name k = Some gn -> chars_in letter gn = true.
Proof.
  assert (Hb : forall b, chars_in letter (base_lname b) = true) by (intros []; reflexivity).
  destruct k as [b| | | | |n|b n| |]; intros [= <-];
    [apply Hb|reflexivity..|apply rep_c_letters; reflexivity|apply rep_c_letters, Hb].
Qed.

Lemma find_key_in l i k : find_key l i = Some k -> In (k, i) l.
Proof.
  induction l as [|[k' v] l IH]; cbn [find_key]; [discriminate|].
  destruct (Nat.eqb_spec v i) as [->|]; intros H; [injection H as ->; now left|right; now apply IH].
Qed.
Lemma get_key_in qm i k : get_key_by_index qm i = Some k -> In (k, i) qm.
Proof. intros H. apply find_key_in in H. now apply in_rev. Qed.

Lemma key_unique (qm : list (string * nat)) k i j :
  NoDup (map fst qm) -> In (k, i) qm -> In (k, j) qm -> i = j.
Proof.
  induction qm as [|[k' v] qm IH]; cbn [map fst]; intros Hnd Hi Hj; [contradiction|].
  inversion Hnd as [|? ? Hk Hr]; subst.
  destruct Hi as [Ei|Hi], Hj as [Ej|Hj].
  - congruence.
  - injection Ei as -> ->. exfalso. apply Hk. apply (in_map fst) in Hj. exact Hj.
  - injection Ej as -> ->. exfalso. apply Hk. apply (in_map fst) in Hi. exact Hi.
  - now apply IH.
Qed.

Lemma fresh_name_spec : forall fuel used s r, fresh_name fuel used s = Some r -> ~ In r used.
Proof.
  induction fuel as [|f IH]; intros used s r; cbn [fresh_name]; [discriminate|].
  destruct (existsb (String.eqb s) used) eqn:E; [apply IH|]. intros [= <-] Hin.
  assert (existsb (String.eqb s) used = true); [|congruence].
  apply existsb_exists. exists s. split; [exact Hin|apply String.eqb_refl].
Qed.

Lemma fresh_name_Forall (P : string -> Prop) : (forall s, P s -> P (String "_" s)) ->
  forall fuel used s r, P s -> fresh_name fuel used s = Some r -> P r.
Proof.
  intros HP. induction fuel as [|f IH]; intros used s r Hs; cbn [fresh_name]; [discriminate|].
  destruct (existsb (String.eqb s) used); [apply IH, HP, Hs|]. now intros [= <-].
Qed.

Lemma qubit_names_go_app qm a : forall b acc,
  qubit_names_go qm (a ++ b) acc =
  match qubit_names_go qm a acc with Some r => qubit_names_go qm b r | None => None end.
Proof.
  induction a as [|i a IH]; intros b acc; cbn [app qubit_names_go]; [reflexivity|].
  destruct (name_of qm acc i); [apply IH|reflexivity].
Qed.

Lemma qubit_names_S n qm :
  qubit_names (S n) qm =
  match qubit_names n qm with
  | Some names => match name_of qm names n with Some k => Some (names ++ [k])%list | None => None end
  | None => None
  end.
Proof.
  unfold qubit_names. rewrite seq_S, qubit_names_go_app. cbn [Nat.add qubit_names_go].
  destruct (qubit_names_go qm (seq 0 n) []); reflexivity.
Qed.

Lemma qubit_names_ind qm (P : nat -> list string -> Prop) : P 0%nat [] ->
  (forall n names k, qubit_names n qm = Some names -> P n names -> name_of qm names n = Some k ->
                     P (S n) (names ++ [k])%list) ->
  forall n names, qubit_names n qm = Some names -> P n names.
Proof.
  intros H0 HS. induction n as [|n IH]; intros names'; [now intros [= <-]|].
  rewrite qubit_names_S. destruct (qubit_names n qm) as [names|] eqn:Eq; [|discriminate].
  destruct (name_of qm names n) as [k|] eqn:Ek; intros [= <-].
  apply (HS n names k Eq); [now apply IH|exact Ek].
Qed.

(* a name is a key of the map, or "q<i>" with underscores in front *)
Lemma qubit_names_Forall (P : string -> Prop) qm : Forall (fun kv => P (fst kv)) qm ->
  (forall i, P ("q" ++ nat_str i)) -> (forall s, P s -> P (String "_" s)) ->
  forall n names, qubit_names n qm = Some names -> Forall P names.
Proof.
  intros Hq Hi HP. apply (qubit_names_ind qm (fun _ => Forall P)); [constructor|].
  intros n names k _ IH Ek. apply Forall_app. split; [exact IH|]. constructor; [|constructor].
  unfold name_of in Ek. destruct (get_key_by_index qm n) as [k0|] eqn:Eg.
  - injection Ek as <-. apply get_key_in in Eg. rewrite Forall_forall in Hq. exact (Hq _ Eg).
  - exact (fresh_name_Forall P HP _ _ _ _ (Hi n) Ek).
Qed.

(* a given name that is a key of the map is the key of a qubit that has its name already *)
Lemma qubit_names_keys qm : NoDup (map fst qm) -> forall n names, qubit_names n qm = Some names ->
  forall s i, In s names -> In (s, i) qm -> (i < n)%nat.
Proof.
  intros Hnd.
  apply (qubit_names_ind qm (fun n names => forall s i, In s names -> In (s, i) qm -> (i < n)%nat));
    [intros s i []|].
  intros n names k _ IH Ek s i Hs Hi. apply in_app_or in Hs as [Hs|[<-|[]]]; [specialize (IH s i Hs Hi); lia|].
  unfold name_of in Ek. destruct (get_key_by_index qm n) as [k0|] eqn:Eg.
  - injection Ek as ->. apply get_key_in in Eg. rewrite (key_unique qm k i n Hnd Hi Eg). lia.
  - apply fresh_name_spec in Ek. exfalso. apply Ek, in_or_app. left. apply (in_map fst) in Hi. exact Hi.
Qed.

Theorem qubit_names_spec n qm names : NoDup (map fst qm) -> Forall (fun kv => fst kv <> "") qm ->
  qubit_names n qm = Some names ->
  List.length names = n /\ NoDup names /\ Forall (fun s => s <> "") names /\
  (forall i k, get_key_by_index qm i = Some k -> (i < n)%nat -> nth_error names i = Some k).
Proof.
  intros Hnd Hne H.
  pose proof (qubit_names_Forall (fun s => s <> "") qm Hne (fun i => ltac:(discriminate))
                (fun s _ => ltac:(discriminate)) n names H) as Hne'.
  enough (List.length names = n /\ NoDup names /\
          (forall i k, get_key_by_index qm i = Some k -> (i < n)%nat -> nth_error names i = Some k))
    by tauto.
  clear Hne'. revert n names H. apply qubit_names_ind.
  - split; [reflexivity|]. split; [constructor|]. intros i k _ Hi. inversion Hi.
  - intros n names k Hq (Hlen & Hd & Hkey) Ek. unfold name_of in Ek.
    split; [rewrite app_length, Hlen; apply Nat.add_1_r|]. split.
    + apply (NoDup_Add (Add_app k names [])). rewrite app_nil_r. split; [exact Hd|]. intros Hin.
      destruct (get_key_by_index qm n) as [k0|] eqn:Eg.
      * injection Ek as ->. apply get_key_in in Eg.
        pose proof (qubit_names_keys qm Hnd n names Hq k n Hin Eg). lia.
      * apply fresh_name_spec in Ek. apply Ek, in_or_app. now right.
    + intros i k' Hg Hi. destruct (Nat.eq_dec i n) as [->|Hin].
      * rewrite Hg in Ek. now rewrite nth_error_app2, Hlen, Nat.sub_diag by lia.
      * rewrite nth_error_app1 by lia. apply Hkey; [exact Hg|lia].
Qed.

Lemma index_of_nth names : NoDup names -> forall q k, nth_error names q = Some k ->
  index_of names k = Some q.
Proof.
  induction 1 as [|x r Hx Hnd IH]; intros q k Hq; [destruct q; discriminate|].
  destruct q as [|q]; cbn [nth_error index_of] in *.
  - injection Hq as ->. now rewrite String.eqb_refl.
  - destruct (String.eqb_spec x k) as [->|_].
    + exfalso. apply Hx. eapply nth_error_In. exact Hq.
    + now rewrite (IH q k Hq).
Qed.

Lemma map_opt_Forall2 {A B} (f : A -> option B) : forall l r,
  map_opt f l = Some r -> Forall2 (fun x y => f x = Some y) l r.
Proof.
  induction l as [|x l IH]; intros r; cbn [map_opt]; [intros [= <-]; constructor|].
  destruct (f x) as [y|] eqn:E; [|discriminate]. destruct (map_opt f l) as [r'|]; [|discriminate].
  intros [= <-]. constructor; [exact E|now apply IH].
Qed.

Lemma map_opt_index names : NoDup names -> forall qs qbs,
  map_opt (nth_error names) qs = Some qbs -> map_opt (index_of names) qbs = Some qs.
Proof.
  intros Hnd qs qbs H. apply map_opt_Forall2 in H.
  induction H as [|q k qs qbs Hq _ IH]; cbn [map_opt]; [reflexivity|].
  now rewrite (index_of_nth names Hnd q k Hq), IH.
Qed.

Lemma map_opt_nth_Forall (P : string -> Prop) names : Forall P names -> forall qs qbs,
  map_opt (nth_error names) qs = Some qbs -> Forall P qbs.
Proof.
  intros Hn qs qbs H. apply map_opt_Forall2 in H. rewrite Forall_forall in Hn.
  induction H as [|q k qs qbs Hq _ IH]; constructor; [|exact IH]. eapply Hn, nth_error_In, Hq.
Qed.

Lemma unspaced_spaced l : Forall (fun s => s <> "") l -> unspaced (spaced l) = l.
Proof.
  intros H. destruct l as [|x [|y r]]; [reflexivity| |destruct x; reflexivity].
  inversion H as [|? ? Hx _]; subst. destruct x; [contradiction|reflexivity].
Qed.

(* no parenthesis in the printed phase: parse_head splits at them *)
Definition phase_ok (p : xparam) : bool :=
  match p with
  | XNone => true
  | XNum _ _ pr => negb (has_char LPAR pr) && negb (has_char RPAR pr)
  end.

(* the inner match of expected_gates *)
Definition printed_of (p : xparam) : option string :=
  match p with XNum _ _ pr => if truthy p then Some pr else None | XNone => None end.

Lemma parse_head_ok gn p : has_char LPAR gn = false -> phase_ok p = true ->
  parse_head (head_token gn p) = Some (gn, printed_of p).
Proof.
  intros Hg Hp.
  assert (Hplain : parse_head (TAB ++ gn ++ "") = Some (gn, None)).
  { cbn [TAB append parse_head]. now rewrite Ascii.eqb_refl, app_nil_r_s, split_nochar. }
  destruct p as [|z d pr]; [exact Hplain|]. unfold head_token, printed_of.
  destruct (truthy _); [|exact Hplain].
  cbn [phase_ok] in Hp. apply andb_prop in Hp as [H1 H2]. apply negb_true_iff in H1, H2.
  cbn [TAB append parse_head]. rewrite Ascii.eqb_refl, (split_app LPAR gn) by exact Hg.
  rewrite split_nochar by (now rewrite has_char_app, H1).
  now rewrite (split_app RPAR pr).
Qed.

(* a head token starts with a TAB: the line is not the closing brace *)
Lemma parse_body_head f gn p qbs r :
  parse_body f ((head_token gn p :: qbs) :: r) =
  match parse_head (head_token gn p), map_opt (index_of f) (unspaced qbs), parse_body f r with
  | Some (gn', ph), Some ix, Some (gs, rest) => Some ((gn', ph, ix) :: gs, rest)
  | _, _, _ => None
  end.
Proof. reflexivity. Qed.

Lemma body_lines_cons f g gl body : body_lines f (g :: gl) = Some body ->
  match qasm_name (xkind g) with
  | None => body_lines f gl = Some body
  | Some gn => exists qbs rest, map_opt f (xqs g) = Some qbs /\ body_lines f gl = Some rest /\
                                body = (head_token gn (xpar g) :: spaced qbs) :: rest
  end.
Proof.
  cbn [body_lines]. destruct (qasm_name (xkind g)) as [gn|]; [|trivial].
  destruct (map_opt f (xqs g)) as [qbs|]; [|discriminate].
  destruct (body_lines f gl) as [rest|]; [|discriminate]. intros [= <-]. now exists qbs, rest.
Qed.

Lemma parse_body_ok names : NoDup names -> Forall (fun s => s <> "") names ->
  forall gl body tail, forallb (fun g => phase_ok (xpar g)) gl = true ->
  body_lines (nth_error names) gl = Some body ->
  parse_body names (body ++ ["}"] :: tail) = Some (expected_gates gl, tail).
Proof.
  intros Hnd Hne. induction gl as [|g gl IH]; intros body tail Hp H; cbn [expected_gates flat_map].
  - now injection H as <-.
  - cbn [forallb] in Hp. apply andb_prop in Hp as [Hpg Hp]. apply body_lines_cons in H.
    destruct (qasm_name (xkind g)) as [gn|] eqn:En; [|cbn [app]; now apply IH].
    destruct H as (qbs & rest & Eq & Er & ->). cbn [app].
    rewrite parse_body_head, parse_head_ok;
      [|exact (chars_in_has letter gn LPAR (qasm_name_letters _ _ En) eq_refl)|exact Hpg].
    rewrite unspaced_spaced by (eapply map_opt_nth_Forall; eassumption).
    rewrite (map_opt_index names Hnd _ _ Eq), (IH rest tail Hp Er). reflexivity.
Qed.

(* the gate declaration, followed by nothing or by the call *)
Lemma parse_gate_block name names gl body post : NoDup names -> Forall (fun s => s <> "") names ->
  forallb (fun g => phase_ok (xpar g)) gl = true -> body_lines (nth_error names) gl = Some body ->
  parse_lines (gate_block name names body ++ post) =
  match post with
  | [] => Some (mkp name names (expected_gates gl) None)
  | [cl] => match parse_call cl with
            | Some c => Some (mkp name names (expected_gates gl) (Some c))
            | None => None
            end
  | _ => None
  end.
Proof.
  intros Hnd Hne Hp Eb. unfold gate_block. cbn [app]. rewrite <- app_assoc.
  cbn [app parse_lines parse_block]. rewrite rev_app_distr. cbn [rev app].
  rewrite rev_involutive, unspaced_spaced by exact Hne.
  rewrite (parse_body_ok names Hnd Hne gl body ([""] :: post) Hp Eb).
  destruct post as [|cl [|x r]]; reflexivity.
Qed.

(* the actual arguments q[0], q[1], ... contain digits and the characters of "q[]" only *)
Lemma actual_chars ch c : digit ch = false -> has_char ch (actual c) = has_char ch "q[]".
Proof.
  intros H. unfold actual. rewrite !has_char_app, (nat_str_chars ch c H).
  exact (eq_sym (has_char_app ch "q[" "]")).
Qed.

Lemma actuals_chars ch l : digit ch = false -> has_char ch "q[]" = false ->
  Forall (fun t => has_char ch t = false) (map actual l).
Proof.
  intros Hd Hq. apply Forall_forall. intros t Ht. apply in_map_iff in Ht as (c & <- & _).
  now rewrite actual_chars.
Qed.

Lemma parse_call_ok name n : parse_call (call_line name n) = Some (name, map actual (seq 0 n)).
Proof.
  unfold call_line, parse_call.
  rewrite (split_app SEMI _ "") by (apply has_char_join; [reflexivity|now apply actuals_chars]).
  cbn [split]. f_equal. f_equal. destruct n as [|n]; [reflexivity|].
  (* the joined arguments start with the "q" of q[0]: the string is not empty *)
  destruct (join "," (map actual (seq 0 (S n)))) eqn:Ej.
  - exfalso. cbn [seq map] in Ej. destruct (map actual (seq 1 n)); discriminate Ej.
  - rewrite <- Ej. apply (split_join COMMA); [discriminate|now apply actuals_chars].
Qed.

(* the printed lines meet the hypothesis tokens_ok of tokenize_render *)
Lemma token_ok_app a b : token_ok (a ++ b) = token_ok a && token_ok b.
Proof.
  unfold token_ok. rewrite !has_char_app.
  destruct (has_char SP a), (has_char SP b), (has_char LF a), (has_char LF b); reflexivity.
Qed.

Lemma chars_in_token cls s : chars_in cls s = true -> cls SP = false -> cls LF = false ->
  token_ok s = true.
Proof. intros H H1 H2. unfold token_ok. now rewrite !(chars_in_has cls s) by assumption. Qed.

Lemma token_ok_nat n : token_ok (nat_str n) = true.
Proof. exact (chars_in_token digit _ (uint_digits _) eq_refl eq_refl). Qed.

Lemma qubit_names_token qm : Forall (fun kv => token_ok (fst kv) = true) qm ->
  forall n names, qubit_names n qm = Some names -> Forall (fun s => token_ok s = true) names.
Proof.
  intros Hq. apply qubit_names_Forall; [exact Hq|intros i|intros s Hs].
  - now rewrite token_ok_app, token_ok_nat.
  - change (String "_" s) with ("_" ++ s). now rewrite token_ok_app, Hs.
Qed.

(* no space or newline in the printed phase: it is one token *)
Definition printed_ok (p : xparam) : bool :=
  match p with XNone => true | XNum _ _ pr => token_ok pr end.

Lemma head_token_ok gn k p : qasm_name k = Some gn -> printed_ok p = true -> token_ok (head_token gn p) = true.
Proof.
  intros Hk Hp. unfold head_token. rewrite !token_ok_app.
  rewrite (chars_in_token letter gn (qasm_name_letters k gn Hk) eq_refl eq_refl). cbn [andb].
  destruct p as [|z d pr]; [reflexivity|]. destruct (truthy (XNum z d pr)); [|reflexivity].
  cbn [printed_ok] in Hp. now rewrite !token_ok_app, Hp.
Qed.

Lemma spaced_ok l : Forall (fun s => token_ok s = true) l -> forallb token_ok (spaced l) = true.
Proof.
  intros H. destruct l as [|x r]; [reflexivity|]. apply forallb_forall. now apply Forall_forall.
Qed.

Lemma body_lines_ok names : Forall (fun s => token_ok s = true) names -> forall gl body,
  forallb (fun g => printed_ok (xpar g)) gl = true ->
  body_lines (nth_error names) gl = Some body -> tokens_ok body = true.
Proof.
  intros Hn. induction gl as [|g gl IH]; intros body Hp H.
  - now injection H as <-.
  - cbn [forallb] in Hp. apply andb_prop in Hp as [Hpg Hp]. apply body_lines_cons in H.
    destruct (qasm_name (xkind g)) as [gn|] eqn:En; [|now apply IH].
    destruct H as (qbs & rest & Eq & Er & ->). unfold tokens_ok. cbn [forallb]. fold (tokens_ok rest).
    rewrite (IH rest Hp Er), andb_true_r. cbn [line_ok forallb].
    rewrite (head_token_ok gn _ _ En Hpg).
    now rewrite (spaced_ok qbs (map_opt_nth_Forall _ names Hn _ _ Eq)).
Qed.

Lemma call_line_ok name n : token_ok name = true -> line_ok (call_line name n) = true.
Proof.
  intros Hn. unfold call_line. cbn [line_ok forallb]. rewrite Hn, token_ok_app, andb_true_r.
  unfold token_ok at 1.
  now rewrite !(has_char_join _ ",") by (try reflexivity; now apply actuals_chars).
Qed.

Definition text_names_ok (name : string) (qm : list (string * nat)) (gl : list xgate) : Prop :=
  token_ok name = true /\ Forall (fun kv => token_ok (fst kv) = true) qm /\
  forallb (fun g => printed_ok (xpar g)) gl = true.

Lemma gate_block_ok name names body : token_ok name = true ->
  Forall (fun s => token_ok s = true) names -> tokens_ok body = true ->
  tokens_ok (gate_block name names body) = true.
Proof.
  intros Hname Hnames Hbody. unfold gate_block, tokens_ok. cbn [forallb app line_ok].
  rewrite Hname, !forallb_app, (spaced_ok names Hnames). fold (tokens_ok body).
  now rewrite Hbody.
Qed.

Lemma header2_ok n :
  tokens_ok [["OPENQASM"; "2.0;"]; [""]; ["include"; """qelib1.inc"";"]; [""];
             ["qreg"; "q[" ++ nat_str n ++ "];"]] = true.
Proof.
  change (line_ok ["qreg"; "q[" ++ nat_str n ++ "];"] && true = true).
  cbn [line_ok forallb]. now rewrite !token_ok_app, token_ok_nat.
Qed.

Lemma tokens_ok_frame pre block call : tokens_ok pre = true -> tokens_ok block = true ->
  line_ok call = true -> tokens_ok (pre ++ block ++ [call]) = true.
Proof. intros H1 H2 H3. unfold tokens_ok in *. rewrite !forallb_app, H1, H2. cbn [forallb]. now rewrite H3. Qed.

Theorem qasm_tokens_ok ver3 gmode name n qm gl ls : text_names_ok name qm gl ->
  qasm_lines true ver3 gmode name n qm gl = Some ls -> tokens_ok ls = true.
Proof.
  intros (Hname & Hqm & Hp). unfold qasm_lines.
  destruct (qubit_names n qm) as [names|] eqn:En; [|discriminate].
  destruct (body_lines (nth_error names) gl) as [body|] eqn:Eb; [|discriminate].
  pose proof (qubit_names_token qm Hqm n names En) as Hnames.
  pose proof (gate_block_ok name names body Hname Hnames (body_lines_ok names Hnames gl body Hp Eb))
    as Hblock.
  pose proof (call_line_ok name n Hname) as Hcall.
  revert Hblock. generalize (gate_block name names body). intros block Hblock.
  destruct gmode; [|destruct ver3]; intros [= <-].
  - exact Hblock.
  - now apply (tokens_ok_frame [_; _]).
  - apply (tokens_ok_frame [_; _; _; _; _]); [exact (header2_ok n)|exact Hblock|exact Hcall].
Qed.

Definition names_ok (qm : list (string * nat)) (gl : list xgate) : Prop :=
  NoDup (map fst qm) /\ Forall (fun kv => fst kv <> "") qm /\
  forallb (fun g => phase_ok (xpar g)) gl = true.

Theorem qasm_roundtrip_lines ver3 gmode name n qm gl ls : names_ok qm gl ->
  qasm_lines true ver3 gmode name n qm gl = Some ls ->
  exists formals,
    parse_lines ls = Some (mkp name formals (expected_gates gl)
                              (if gmode then None else Some (name, map actual (seq 0 n)))) /\
    List.length formals = n /\ NoDup formals /\
    (forall i k, get_key_by_index qm i = Some k -> (i < n)%nat -> nth_error formals i = Some k).
Proof.
  intros (Hnd & Hne & Hp). unfold qasm_lines.
  destruct (qubit_names n qm) as [names|] eqn:En; [|discriminate].
  destruct (body_lines (nth_error names) gl) as [body|] eqn:Eb; [|discriminate].
  destruct (qubit_names_spec n qm names Hnd Hne En) as (H1 & H2 & H3 & H4).
  intros H. injection H as <-. exists names. split; [|auto].
  pose proof (fun post => parse_gate_block name names gl body post H2 H3 Hp Eb) as Hblock.
  destruct gmode.
  - rewrite <- (app_nil_r (gate_block name names body)). exact (Hblock []).
  - (* the lines before the gate declaration are skipped by computation *)
    assert (Hcall : parse_lines (gate_block name names body ++ [call_line name n]) =
                    Some (mkp name names (expected_gates gl) (Some (name, map actual (seq 0 n)))))
      by (now rewrite Hblock, parse_call_ok).
    destruct ver3; exact Hcall.
Qed.

Definition spec_gate (bars : bool) (g : xgate) : list xop :=
  match xkind g with
  | KBarrier => if bars then [XBar] else []
  | _ => spec_op true g
  end.

Lemma spec_ops_flat bars gl : spec_ops bars gl = flat_map (spec_gate bars) gl.
Proof. reflexivity. Qed.

(* a dispatch that emits, for every well-formed gate it accepts, the ops of the specification *)
Lemma collect_spec (f : xgate -> xres (list xop)) bars gl :
  (forall g o, xwf g = true -> f g = XOk o -> o = spec_gate bars g) ->
  forallb xwf gl = true -> forall ops, collect (map f gl) = XOk ops -> ops = spec_ops bars gl.
Proof.
  intros Hf. rewrite spec_ops_flat.
  induction gl as [|g gl IH]; cbn [forallb map collect flat_map]; intros Hw ops; [now intros [= <-]|].
  apply andb_prop in Hw as [Hg Hw]. destruct (f g) as [a|] eqn:Eg; [|discriminate].
  destruct (collect (map f gl)) as [b|]; [|discriminate].
  intros [= <-]. now rewrite (Hf g a Hg Eg), (IH Hw b eq_refl).
Qed.

Lemma firstn_exact {A} (l : list A) n : List.length l = n -> firstn n l = l.
Proof. intros <-. apply firstn_all. Qed.

Lemma if_XOk {A} (b : bool) (x : xres A) o : (if b then x else XErr) = XOk o -> b = true /\ x = XOk o.
Proof. now destruct b. Qed.

(* first mcx, the multi-controlled X, Z (the number of controls is read off the qubit list) and
   nop; then the barrier; then the generic branch: the lower-cased class name must be an attribute
   of QuantumCircuit, and a parameter is passed exactly to the gates based on P (the two tests of
   that branch are the two if_XOk) *)
Lemma qiskit_gate_spec attrs gmode g o : xwf g = true ->
  qiskit_gate attrs gmode g = XOk o -> o = spec_gate (negb gmode) g.
Proof.
  destruct g as [k w p]. unfold xwf, xarity, qiskit_gate, spec_gate, spec_op. cbn [xkind xqs xpar].
  intros Hw Hg. apply Nat.eqb_eq in Hw.
  destruct k as [[]| | | | |n|[] n| |]; cbn [canon base_arity] in Hw, Hg |- *;
    try (injection Hg as <-; now rewrite ?Hw, ?Nat.add_sub).
  all: try (destruct gmode; now injection Hg as <-).
  all: apply if_XOk in Hg as [_ Hg]; apply if_XOk in Hg as [_ Hg]; now injection Hg as <-.
Qed.

(* first Swap, mcx and the multi-controlled X, Z; then barrier and nop; then the generic branch: the
   class name (CNOT, CCNOT for CX, CCX) must be an attribute of cirq, and the parameter is not
   passed: P, and MCtrl of another base than X, Z, are excluded by the hypotheses (HP, HM contradict
   the attribute test Ha of the generic branch: the congruence); last CP *)
Lemma cirq_gate_spec patched attrs g o : has attrs "P" = false -> has attrs "MCtrl" = false ->
  xwf g = true -> cirq_gate patched attrs g = XOk o -> o = spec_gate false g.
Proof.
  intros HP HM. destruct g as [k w p]. unfold xwf, xarity, cirq_gate, spec_gate, spec_op.
  cbn [xkind xqs xpar]. intros Hw Hg. apply Nat.eqb_eq in Hw.
  destruct k as [[]| | | | |n|[] n| |]; cbn [canon base_arity class_name] in Hw, Hg |- *;
    try (injection Hg as <-; now rewrite ?Hw, ?Nat.add_sub).
  all: try (destruct patched; [now injection Hg as <-|discriminate]).
  all: try (apply if_XOk in Hg as [Ha Hg]; first [now injection Hg as <-|congruence]).
  destruct (num_of p); [now injection Hg as <-|discriminate].
Qed.

(* Sympy takes the first one or two qubits of the list: all of them, by xwf *)
Lemma sympy_gate_spec g o : xwf g = true -> sympy_gate g = XOk o -> o = spec_gate false g.
Proof.
  destruct g as [k w p]. unfold xwf, xarity, sympy_gate, spec_gate, spec_op. cbn [xkind xqs xpar].
  intros Hw Hg. apply Nat.eqb_eq in Hw.
  destruct k as [[]| | | | |n|b n| |]; cbn [canon base_arity Nat.add] in Hw |- *; try discriminate Hg;
    rewrite ?(firstn_exact w _ Hw) in Hg; try (now injection Hg as <-).
  - rewrite Hw in Hg. now injection Hg as <-.
  - rewrite Hw, Nat.add_sub in Hg. destruct n; [discriminate|now injection Hg as <-].
Qed.

(* read off the op list: its qubit lists are the gates' qubit lists, in order *)
Definition op_qubits (o : xop) : list (list nat) := match o with XOp _ _ qs _ => [qs] | XBar => [] end.

Lemma body_lines_ext f g gl : (forall q, f q = g q) -> body_lines f gl = body_lines g gl.
Proof.
  intros H. induction gl as [|x gl IH]; cbn [body_lines]; [reflexivity|].
  rewrite IH. destruct (qasm_name (xkind x)); [|reflexivity].
  assert (E : map_opt f (xqs x) = map_opt g (xqs x)).
  { induction (xqs x) as [|q w IHw]; cbn [map_opt]; [reflexivity|now rewrite H, IHw]. }
  now rewrite E.
Qed.

(* when the map lists the qubits 0 .. n-1 in order, each with one name, the reversed scan for
   qubit i finds the i-th key: by induction from the right, where the scan starts *)
Lemma ordered_get_key qm i : forall n, map snd qm = seq 0 n ->
  get_key_by_index qm i = nth_error (map fst qm) i.
Proof.
  unfold get_key_by_index. induction qm as [|[k v] qm IH] using rev_ind; intros n Hs.
  - now destruct i.
  - rewrite map_app in Hs. destruct n as [|n]; [now destruct (map snd qm)|].
    rewrite seq_S in Hs. apply app_inj_tail in Hs as [Hs [= ->]].
    assert (Hlen : List.length (map fst qm) = n).
    { rewrite map_length, <- (map_length snd), Hs. apply seq_length. }
    rewrite rev_app_distr, map_app. cbn [rev app find_key map fst Nat.add].
    destruct (Nat.eqb_spec n i) as [<-|Hni].
    + now rewrite nth_error_app2, Hlen, Nat.sub_diag by lia.
    + rewrite (IH n Hs). destruct (Nat.lt_ge_cases i n) as [Hlt|Hge].
      * now rewrite nth_error_app1 by lia.
      * transitivity (@None string); [|symmetry]; apply nth_error_None;
          rewrite ?app_length, Hlen; cbn [List.length]; lia.
Qed.

Lemma ordered_names qm m : map snd qm = seq 0 m -> forall n, (n <= m)%nat ->
  qubit_names n qm = Some (firstn n (map fst qm)).
Proof.
  intros Hs. assert (Hlen : List.length (map fst qm) = m).
  { rewrite map_length, <- (map_length snd), Hs. apply seq_length. }
  induction n as [|n IH]; intros Hn; [reflexivity|].
  rewrite qubit_names_S, IH by lia. unfold name_of. rewrite (ordered_get_key qm n m Hs).
  destruct (nth_error (map fst qm) n) as [k|] eqn:E.
  - now rewrite (firstn_snoc _ _ _ E).
  - apply nth_error_None in E. lia.
Qed.

(* the compiled function `c = a and b; return (c, c)`: three qubits, five names *)
Definition alias_qm : list (string * nat) :=
  [("a", 0); ("b", 1); ("x0", 2); ("_ret.0", 2); ("_ret.1", 2)].
Definition alias_gl : list xgate := [mkx KCCX [0; 1; 2] XNone].
