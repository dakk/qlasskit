(* Prop_C04.v — "Boolean optimizer profiles preserve meaning".
   Model: M_Boolopt.v (qlasskit/boolopt/*.py and the per-expression
   simplify_logic of ast2logic/t_ast.py).  The sympy calls simplify_logic and
   cse are universally quantified functions constrained only by the contracts
   simp_sem / simp_syms / cse_contract of P_Boolopt.v.  [run_defs env ds j] is
   the value of symbol j after evaluating the definitions ds in order from the
   assignment env; [is_ret j] says that the name of j starts with "_ret". *)
From Coq Require Import List Bool NArith Arith.
From QV Require Import Bexp BexpTT Compiled M_Boolopt P_Boolopt Chk_Boolopt.
Import ListNotations.

Theorem C04_remove_ITE_preserves : forall env e, beval env (remove_ITE e) = beval env e.
Proof. intros env e. apply refines_beval, remove_ITE_refines. Qed.
Print Assumptions C04_remove_ITE_preserves.

Theorem C04_remove_Implies_preserves : forall env e, beval env (remove_Implies e) = beval env e.
Proof. intros env e. apply refines_beval, remove_Implies_refines. Qed.
Print Assumptions C04_remove_Implies_preserves.

Theorem C04_transform_or2xor_preserves : forall env e, beval env (transform_or2xor e) = beval env e.
Proof. intros env e. apply refines_beval, or2xor_refines. Qed.
Print Assumptions C04_transform_or2xor_preserves.

(* for both values of the module flag DISABLE_OR *)
Theorem C04_transform_or2and_preserves : forall env dis e, beval env (transform_or2and dis e) = beval env e.
Proof. intros env dis e. apply refines_beval, or2and_refines. Qed.
Print Assumptions C04_transform_or2and_preserves.

Theorem C04_remove_obvious_preserves : forall env e, beval env (remove_obvious e) = beval env e.
Proof. intros env e. apply refines_beval, remove_obvious_refines. Qed.
Print Assumptions C04_remove_obvious_preserves.

(* a SympyTransformer that overrides nothing *)
Theorem C04_default_visitors_preserve : forall env e, beval env (visit_default e) = beval env e.
Proof. intros env e. apply refines_beval, visit_default_refines. Qed.
Print Assumptions C04_default_visitors_preserve.

(* the second self.visit inside visit_ITE / visit_Implies (on the node just
   built) changes nothing, so the model's clause may omit it *)
Theorem C04_remove_ITE_second_visit : forall e, remove_ITE (remove_ITE e) = remove_ITE e.
Proof. exact remove_ITE_idem. Qed.
Print Assumptions C04_remove_ITE_second_visit.

Theorem C04_remove_Implies_second_visit : forall e, remove_Implies (remove_Implies e) = remove_Implies e.
Proof. exact remove_Implies_idem. Qed.
Print Assumptions C04_remove_Implies_second_visit.

(* before fix 351a1a5 the rule had no arity guards and was wrong *)
Theorem C04_or2xor_unguarded_refuted :
  transform_or2xor_unguarded w_or3 = BNot (BXor [BSym 0; BSym 1]) /\
  exists env, beval env (transform_or2xor_unguarded w_or3) <> beval env w_or3.
Proof.
  split; [reflexivity|]. exists (fun i => match i with 0 | 1 => true | _ => false end).
  vm_compute. discriminate.
Qed.
Print Assumptions C04_or2xor_unguarded_refuted.

(* a transformer as a step of a profile: EVERY symbol keeps its function *)
Theorem C04_transformer_step_preserves : forall simp cse is_ret disable_or st,
  is_transformer st = true -> forall ds env j,
  run_defs env (apply_step simp cse is_ret disable_or st ds) j = run_defs env ds j.
Proof. exact (fun simp cse is_ret dis st H ds => proj1 (transformer_step_same simp cse is_ret dis st H ds)). Qed.
Print Assumptions C04_transformer_step_preserves.

Theorem C04_transformer_step_symbols : forall simp cse is_ret disable_or st,
  is_transformer st = true -> forall ds,
  (forall ok, free_ok ok ds -> free_ok ok (apply_step simp cse is_ret disable_or st ds)) /\
  names (apply_step simp cse is_ret disable_or st ds) = names ds.
Proof.
  exact (fun simp cse is_ret dis st H ds => proj2 (transformer_step_same simp cse is_ret dis st H ds)).
Qed.
Print Assumptions C04_transformer_step_symbols.

(* translate_ast: per-expression simplify_logic(e, form="cnf") *)
Theorem C04_front_simplify_preserves : forall simp, simp_sem simp ->
  forall ds env j, run_defs env (front_simplify simp ds) j = run_defs env ds j.
Proof. intros simp Hs. apply run_defs_map_defs. exact Hs. Qed.
Print Assumptions C04_front_simplify_preserves.

(* guard ret_fresh: no _ret symbol is defined after an earlier expression read it *)
Theorem C04_merge_preserves : forall simp is_ret, simp_sem simp ->
  forall ds, ret_fresh is_ret [] ds ->
  forall env j, is_ret j = true ->
  run_defs env (merge_expressions simp is_ret ds) j = run_defs env ds j.
Proof. exact merge_preserves. Qed.
Print Assumptions C04_merge_preserves.

(* every well-formed list over n inputs (reads only inputs and earlier
   definitions; a _ret symbol is not an input and is defined once) *)
Theorem C04_merge_preserves_wellformed : forall simp is_ret n ds, simp_sem simp ->
  wf_defsb n is_ret ds = true ->
  forall env j, is_ret j = true ->
  run_defs env (merge_expressions simp is_ret ds) j = run_defs env ds j.
Proof. intros simp is_ret n ds Hs Hw. apply merge_preserves; [exact Hs|exact (wf_ret_fresh n is_ret ds Hw)]. Qed.
Print Assumptions C04_merge_preserves_wellformed.

Theorem C04_merge_symbols : forall simp is_ret, simp_syms simp -> forall ds,
  (forall ok, free_ok ok ds -> free_ok ok (merge_expressions simp is_ret ds)) /\
  (forall r, is_ret r = true -> In r (names ds) -> In r (names (merge_expressions simp is_ret ds))).
Proof.
  exact (fun simp is_ret Hs ds =>
    conj (merge_free simp is_ret Hs ds) (merge_keeps_ret simp is_ret ds)).
Qed.
Print Assumptions C04_merge_symbols.

(* apply_cse before fix 0ecd3ac: at full strength (every well-formed list) the
   statement is FALSE of the model: the replacements are put in front of the
   list, so a replacement that mentions a symbol defined by the list reads it
   before its definition. *)
Theorem C04_apply_cse_refuted :
  exists is_ret cse, cse_contract is_ret cse /\
  exists ds env j, free_ok (fun i => i < 4) ds /\ is_ret j = true /\ In j (names ds) /\
    run_defs env (apply_cse cse ds) j <> run_defs env ds j.
Proof.
  exists w_is_ret, w_cse. split; [exact w_cse_contract|].
  exists w_ds, w_env, 6. split; [exact w_ds_free|]. split; [reflexivity|].
  split; [cbn; tauto|vm_compute; discriminate].
Qed.
Print Assumptions C04_apply_cse_refuted.

(* exact guard: no expression reads a symbol the list defines, and no name of
   the list is a replacement symbol; then every symbol that is not a
   replacement symbol (in particular every _ret symbol) keeps its function *)
Theorem C04_apply_cse_partial : forall cse is_ret, cse_contract is_ret cse -> forall ds,
  (forall i, In i (all_syms ds) -> ~ In i (names ds)) ->
  (forall s, In s (names ds) -> ~ In s (names (fst (cse (exprs ds))))) ->
  forall env j, (~ In j (names (fst (cse (exprs ds)))) \/ is_ret j = true) ->
  run_defs env (apply_cse cse ds) j = run_defs env ds j.
Proof. exact apply_cse_partial. Qed.
Print Assumptions C04_apply_cse_partial.

Theorem C04_apply_cse_symbols : forall cse is_ret, cse_contract is_ret cse -> forall ds,
  (forall ok, (forall i, In i (all_syms ds) -> ~ In i (names ds)) ->
     free_ok ok ds -> free_ok ok (apply_cse cse ds)) /\
  (forall r, In r (names ds) -> In r (names (apply_cse cse ds))).
Proof.
  exact (fun cse is_ret Hc ds =>
    conj (apply_cse_free cse is_ret Hc ds) (apply_cse_keeps cse is_ret Hc ds)).
Qed.
Print Assumptions C04_apply_cse_symbols.

(* fastOptimizer and every prefix of it *)
Theorem C04_fast_profile_preserves : forall simp cse is_ret disable_or k ds env j,
  run_defs env (apply_profile simp cse is_ret disable_or (firstn k fast_profile) ds) j = run_defs env ds j.
Proof. exact (fun simp cse is_ret dis k ds => proj1 (fast_profile_same simp cse is_ret dis k ds)). Qed.
Print Assumptions C04_fast_profile_preserves.

Theorem C04_fast_profile_symbols : forall simp cse is_ret disable_or k ds,
  (forall ok, free_ok ok ds ->
     free_ok ok (apply_profile simp cse is_ret disable_or (firstn k fast_profile) ds)) /\
  names (apply_profile simp cse is_ret disable_or (firstn k fast_profile) ds) = names ds.
Proof. exact (fun simp cse is_ret dis k ds => proj2 (fast_profile_same simp cse is_ret dis k ds)). Qed.
Print Assumptions C04_fast_profile_symbols.

(* defaultOptimizer contains apply_cse after merge_expressions: with apply_cse as
   it was before fix 0ecd3ac (default_profile), false at full strength *)
Theorem C04_default_profile_refuted :
  exists simp cse is_ret, simp_sem simp /\ simp_syms simp /\ cse_contract is_ret (cse []) /\
  exists ds env j, free_ok (fun i => i < 4) ds /\ is_ret j = true /\ In j (names ds) /\
    run_defs env (apply_profile simp cse is_ret false default_profile ds) j <> run_defs env ds j.
Proof.
  exists (fun e => e), (fun _ => w_cse), w_is_ret. split; [intros env e; reflexivity|].
  split; [intros e i Hi; exact Hi|]. split; [exact w_cse_contract|].
  exists w_ds, w_env, 6. split; [exact w_ds_free|]. split; [reflexivity|].
  split; [cbn; tauto|vm_compute; discriminate].
Qed.
Print Assumptions C04_default_profile_refuted.

(* exact guard: no expression reads a _ret symbol that the list defines (every
   list the front end produces from a program whose variables are not named
   _ret...) *)
Theorem C04_default_profile_partial : forall simp cse is_ret disable_or,
  simp_sem simp -> simp_syms simp -> cse_contract is_ret (cse []) ->
  forall k ds, no_ret_read is_ret ds -> forall env j, is_ret j = true ->
  run_defs env (apply_profile simp cse is_ret disable_or (firstn k default_profile) ds) j = run_defs env ds j.
Proof.
  intros simp cse is_ret dis Hs Hss Hc k ds Hn env j Hj.
  apply (merge_cse_fast_sem simp cse is_ret dis S_cse k ds env j Hs (no_ret_read_fresh is_ret ds Hn) Hj).
  cbn [apply_step]. destruct (merge_output_guards simp (cse []) is_ret Hss Hc ds Hn) as [G1 G2].
  apply (apply_cse_partial _ _ Hc); [exact G1|exact G2|now right].
Qed.
Print Assumptions C04_default_profile_partial.

Theorem C04_default_profile_symbols : forall simp cse is_ret disable_or,
  simp_syms simp -> cse_contract is_ret (cse []) ->
  forall k ds, no_ret_read is_ret ds ->
  (forall ok, free_ok ok ds ->
     free_ok ok (apply_profile simp cse is_ret disable_or (firstn k default_profile) ds)) /\
  (forall r, is_ret r = true -> In r (names ds) ->
     In r (names (apply_profile simp cse is_ret disable_or (firstn k default_profile) ds))).
Proof.
  intros simp cse is_ret dis Hss Hc k ds Hn.
  destruct (merge_output_guards simp (cse []) is_ret Hss Hc ds Hn) as [G1 _].
  apply (merge_cse_fast_symbols simp cse is_ret dis S_cse k ds Hss).
  - intros ok. now apply (apply_cse_free _ _ Hc).
  - apply (apply_cse_keeps _ _ Hc).
Qed.
Print Assumptions C04_default_profile_symbols.

(* apply_cse as repaired (fix 0ecd3ac), at full strength: every list, every symbol that is not a replacement symbol *)
Theorem C04_apply_cse_guarded_preserves : forall cse is_ret, csex_contract is_ret cse ->
  forall ds env j,
  (~ In j (names (fst (cse (names ds) (exprs ds)))) \/ is_ret j = true) ->
  run_defs env (apply_cse_guarded cse ds) j = run_defs env ds j.
Proof. exact apply_cse_guarded_preserves. Qed.
Print Assumptions C04_apply_cse_guarded_preserves.

Theorem C04_apply_cse_guarded_symbols : forall cse is_ret, csex_contract is_ret cse -> forall ds,
  (forall ok, free_ok ok ds -> free_ok ok (apply_cse_guarded cse ds)) /\
  (forall r, In r (names ds) -> In r (names (apply_cse_guarded cse ds))).
Proof. exact apply_cse_guarded_symbols. Qed.
Print Assumptions C04_apply_cse_guarded_symbols.

(* defaultOptimizer as shipped, with that apply_cse (default_profile_guarded):
   every list merge_expressions handles (in particular every well-formed list),
   every prefix *)
Theorem C04_default_profile_guarded_preserves : forall simp cse is_ret disable_or,
  simp_sem simp -> csex_contract is_ret cse ->
  forall k ds, ret_fresh is_ret [] ds -> forall env j, is_ret j = true ->
  run_defs env (apply_profile simp cse is_ret disable_or (firstn k default_profile_guarded) ds) j = run_defs env ds j.
Proof.
  intros simp cse is_ret dis Hs Hc k ds Hf env j Hj.
  apply (merge_cse_fast_sem simp cse is_ret dis S_cse_guarded k ds env j Hs Hf Hj).
  cbn [apply_step]. apply (apply_cse_guarded_preserves _ _ Hc). now right.
Qed.
Print Assumptions C04_default_profile_guarded_preserves.

Theorem C04_default_profile_guarded_symbols : forall simp cse is_ret disable_or,
  simp_syms simp -> csex_contract is_ret cse -> forall k ds,
  (forall ok, free_ok ok ds ->
     free_ok ok (apply_profile simp cse is_ret disable_or (firstn k default_profile_guarded) ds)) /\
  (forall r, is_ret r = true -> In r (names ds) ->
     In r (names (apply_profile simp cse is_ret disable_or (firstn k default_profile_guarded) ds))).
Proof.
  intros simp cse is_ret dis Hss Hc k ds.
  destruct (apply_cse_guarded_symbols cse is_ret Hc (merge_expressions simp is_ret ds)) as [Hf Hk].
  exact (merge_cse_fast_symbols simp cse is_ret dis S_cse_guarded k ds Hss Hf Hk).
Qed.
Print Assumptions C04_default_profile_guarded_symbols.

(* the guards are decidable by evaluation *)
Theorem C04_guards_computable : forall n is_ret ds,
  (no_ret_readb is_ret ds = true -> no_ret_read is_ret ds) /\
  (no_def_readb ds = true -> forall i, In i (all_syms ds) -> ~ In i (names ds)) /\
  (wf_defsb n is_ret ds = true -> ret_fresh is_ret [] ds /\ free_ok (fun i => i < n) ds).
Proof.
  exact (fun n is_ret ds =>
    conj (no_ret_readb_ok is_ret ds) (conj (no_def_readb_ok ds)
      (fun H => conj (wf_ret_fresh n is_ret ds H) (wf_free_ok n is_ret ds H)))).
Qed.
Print Assumptions C04_guards_computable.

(* what the verdicts of the correspondence run mean *)
Theorem C04_checker_sound_and_complete : forall n syms d1 d2,
  sym_diff n syms d1 d2 = [] <->
  forall x, (x < pow2n n)%N -> forall r, In r syms -> run_defs (asg x) d1 r = run_defs (asg x) d2 r.
Proof. exact sym_diff_correct. Qed.
Print Assumptions C04_checker_sound_and_complete.

Theorem C04_checker_witness : forall n d1 d2 r, sym_differs n d1 d2 r = true ->
  let x := sym_witness n d1 d2 r in
  (x < pow2n n)%N /\ run_defs (asg x) d1 r <> run_defs (asg x) d2 r.
Proof. exact sym_witness_correct. Qed.
Print Assumptions C04_checker_witness.

(* failure kind 1 reported for an observed step = that verdict on the symbols the step must keep *)
Theorem C04_observation_verdict : forall g n rets dis d_in o steps,
  steps_of_code g (o_code o) = Some steps ->
  (In 1%N (chk_obs g n rets dis d_in (Compiled.expr_tables n d_in) o) <->
   sym_diff n (kept_syms rets steps d_in) d_in (o_out o) <> []).
Proof. exact chk_obs_kind1. Qed.
Print Assumptions C04_observation_verdict.

Notation a := (BSym 0). Notation b := (BSym 1). Notation c := (BSym 2). Notation d := (BSym 3).

Example ex_remove_ITE : remove_ITE (BAnd [BIte a b c; d]) = BAnd [BOr [BAnd [a; b]; BAnd [BNot a; c]]; d].
Proof. reflexivity. Qed.
Example ex_remove_Implies : remove_Implies (BNot (BImp a (BImp b c))) = BNot (BOr [BNot a; BOr [BNot b; c]]).
Proof. reflexivity. Qed.
(* both polarities, positional *)
Example ex_or2xor_fires : transform_or2xor (BOr [BAnd [a; b]; BAnd [BNot a; BNot b]]) = BNot (BXor [a; b]).
Proof. reflexivity. Qed.
Example ex_or2xor_fires_swapped :
  transform_or2xor (BOr [BAnd [BNot a; b]; BAnd [a; BNot b]]) = BNot (BXor [BNot a; b]).
Proof. reflexivity. Qed.
(* crossed positions: the test is positional, the rule does not fire *)
Example ex_or2xor_positional :
  transform_or2xor (BOr [BAnd [a; b]; BAnd [BNot b; BNot a]]) = BOr [BAnd [a; b]; BAnd [BNot b; BNot a]].
Proof. reflexivity. Qed.
(* three literals: the guarded rule leaves the expression alone ... *)
Example ex_or2xor_guarded : transform_or2xor w_or3 = w_or3.
Proof. reflexivity. Qed.
(* ... before fix 351a1a5 the rule produced ~(a^b), which differs from (a&b&c)|(~a&~b&~c) at a=b=1, c=0 *)
Example ex_or2xor_old_rule_wrong :
  let env := fun i : nat => match i with 0 | 1 => true | _ => false end in
  transform_or2xor_unguarded w_or3 = BNot (BXor [a; b]) /\
  beval env w_or3 = false /\ beval env (BNot (BXor [a; b])) = true.
Proof. repeat split. Qed.
Example ex_or2and_fires : transform_or2and false (BOr [a; b; c]) = BNot (BAnd [BNot a; BNot b; BNot c]).
Proof. reflexivity. Qed.
(* a binary Or is returned without visiting its arguments *)
Example ex_or2and_no_descent :
  transform_or2and false (BOr [BOr [a; b; c]; d]) = BOr [BOr [a; b; c]; d] /\
  transform_or2and false (BAnd [BOr [a; b; c]; d]) = BAnd [BNot (BAnd [BNot a; BNot b; BNot c]); d].
Proof. split; reflexivity. Qed.
Example ex_obvious : remove_obvious (BAnd [a; BNot a]) = BConst false /\
  remove_obvious (BOr [BNot a; a]) = BConst true /\ remove_obvious (BNot (BNot c)) = c /\
  remove_obvious (BXor [BAnd [a; BNot a]; b]) = BXor [BConst false; b] /\
  remove_obvious (BAnd [BAnd [a; BNot a]; b]) = BAnd [BAnd [a; BNot a]; b].
Proof. repeat split. Qed.

(* merge_expressions inlines the intermediate 5 = "t" and keeps the _ret symbols 6, 7 *)
Example ex_merge :
  merge_expressions simp_id (mem_ret [6; 7]) [(5, BAnd [a; b]); (6, BXor [BSym 5; c]); (7, BOr [BSym 5; d])]
  = [(6, BXor [BAnd [a; b]; c]); (7, BOr [BAnd [a; b]; d])].
Proof. reflexivity. Qed.
Example ex_contracts_satisfiable :
  simp_sem simp_id /\ simp_syms simp_id /\ cse_contract w_is_ret w_cse.
Proof.
  split; [intros env e; reflexivity|]. split; [intros e i H; exact H|exact w_cse_contract].
Qed.
(* the witness of the refutations violates the guards; an ordinary list satisfies them *)
Example ex_guards :
  no_ret_readb w_is_ret w_ds = false /\ no_def_readb w_ds = false /\
  wf_defsb 4 w_is_ret w_ds = true /\
  no_ret_readb (mem_ret [6; 7]) [(5, BAnd [a; b]); (6, BXor [BSym 5; c]); (7, BOr [BSym 5; d])] = true /\
  wf_defsb 4 (mem_ret [6; 7]) [(5, BAnd [a; b]); (6, BXor [BSym 5; c]); (7, BOr [BSym 5; d])] = true.
Proof. repeat split. Qed.
(* apply_cse as repaired leaves the witness of the refutation as it is, and still
   extracts when no expression reads a defined symbol *)
Example ex_cse_guarded :
  apply_cse_guarded (fun _ => w_cse) w_ds = w_ds /\
  apply_cse_guarded (fun _ es => ([((9, BXor [a; b]))], [BAnd [BSym 9; c]; BOr [BSym 9; d]]))
                    [(6, BAnd [BXor [a; b]; c]); (7, BOr [BXor [a; b]; d])]
  = [(9, BXor [a; b]); (6, BAnd [BSym 9; c]); (7, BOr [BSym 9; d])].
Proof. split; reflexivity. Qed.
(* the checker separates the unguarded rule from the expression it replaced *)
Example ex_checker_detects :
  sym_diff 3 [4] [(4, w_or3)] [(4, BNot (BXor [a; b]))] = [4] /\
  sym_diff 3 [4] [(4, w_or3)] [(4, transform_or2xor w_or3)] = [].
Proof. split; vm_compute; reflexivity. Qed.
