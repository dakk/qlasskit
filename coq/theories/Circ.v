(* Circ.v — qlasskit circuits (gate list over qubit indices) and the semantics
   of their classical reversible part, in any bit algebra: on booleans (one
   basis state) and on packed truth tables (all basis states at once). *)
From Coq Require Import List Bool NArith ZArith Arith Lia.
From QV Require Import Bexp BexpTT.
Import ListNotations.

Lemma firstn_snoc {A} (d : list A) : forall k g, nth_error d k = Some g -> firstn (S k) d = firstn k d ++ [g].
Proof.
  induction d as [|x d IH]; intros k g H; [destruct k; discriminate|].
  destruct k as [|k]; cbn [nth_error] in H.
  - injection H as ->. reflexivity.
  - cbn [firstn app]. f_equal. now apply IH.
Qed.

Inductive base := BI | BX | BY | BZ | BH | BS | BT | BP | BSwap.
(* the gate classes of qlasskit/qcircuit/gates.py; the class matters to the
   decompiler (isinstance tests), so it is kept *)
Inductive gk :=
| K1 (b : base)            (* I X Y Z H S T P Swap *)
| KCX | KCZ | KCP | KCCX
| KMCX (n : nat)           (* MCX(n_controls) *)
| KMCtrl (b : base) (n : nat)  (* MCtrl(gate, n_controls) *)
| KBarrier | KNop.
Record gate := mkg { gkind : gk; gqs : list nat; gpar : option (Z * N) }.
Definition circuit := list gate.

(* number of controls when the gate is an X with controls *)
Definition x_controls (k : gk) : option nat :=
  match k with
  | K1 BX => Some 0 | KCX => Some 1 | KCCX => Some 2
  | KMCX n => Some n | KMCtrl BX n => Some n
  | _ => None
  end%nat.

Inductive cact := CFlip (cs : list nat) (t : nat) | CId | CNone.

Definition cact_of (g : gate) : cact :=
  match gkind g with
  | KBarrier | KNop | K1 BI => CId
  | k => match x_controls k with
         | Some nc => if Nat.eqb (length (gqs g)) (S nc)
                      then CFlip (removelast (gqs g)) (last (gqs g) 0%nat) else CNone
         | None => CNone
         end
  end.

Section Sim.
  Variable A : balg.
  Definition getq (s : list A) (q : nat) : A := nth q s (b_false A).
  Definition ctrl (s : list A) (cs : list nat) : A :=
    fold_right (fun c acc => b_and A (getq s c) acc) (b_true A) cs.
  Definition flip (s : list A) (cs : list nat) (t : nat) : list A :=
    upd (b_false A) s t (b_xor A (getq s t) (ctrl s cs)).
  Fixpoint sim (s : list A) (c : circuit) : option (list A) :=
    match c with
    | [] => Some s
    | g :: r => match cact_of g with
                | CFlip cs t => sim (flip s cs t) r
                | CId => sim s r
                | CNone => None
                end
    end.
End Sim.

(* reference semantics on one basis state, as a function qubit -> bool *)
Definition fflip (f : nat -> bool) (cs : list nat) (t : nat) : nat -> bool :=
  fun q => if Nat.eqb q t then xorb (f t) (forallb f cs) else f q.
Fixpoint fsim (f : nat -> bool) (c : circuit) : option (nat -> bool) :=
  match c with
  | [] => Some f
  | g :: r => match cact_of g with
              | CFlip cs t => fsim (fflip f cs t) r
              | CId => fsim f r
              | CNone => None
              end
  end.

Definition opt_rel {X Y} (R : X -> Y -> Prop) (a : option X) (b : option Y) : Prop :=
  match a, b with Some x, Some y => R x y | None, None => True | _, _ => False end.

Lemma forallb_ext_in {X} (f g : X -> bool) l : (forall x, In x l -> f x = g x) -> forallb f l = forallb g l.
Proof.
  induction l as [|x r IH]; intros H; cbn [forallb]; [reflexivity|].
  rewrite (H x) by now left. f_equal. apply IH. intros y Hy. apply H. now right.
Qed.

Lemma existsb_eqb_in x l : existsb (Nat.eqb x) l = true <-> In x l.
Proof.
  rewrite existsb_exists. split.
  - intros (y & Hy & He). apply Nat.eqb_eq in He. now subst.
  - intros H. exists x. split; [exact H|apply Nat.eqb_refl].
Qed.

Lemma fsim_ext c : forall f g, (forall q, f q = g q) ->
  opt_rel (fun f' g' => forall q, f' q = g' q) (fsim f c) (fsim g c).
Proof.
  induction c as [|x c IH]; intros f g H; cbn [fsim]; [exact H|].
  destruct (cact_of x) as [cs t| |]; [|now apply IH|exact I].
  apply IH. intros q. unfold fflip. rewrite H, (forallb_ext_in f g cs (fun x _ => H x)). now rewrite H.
Qed.

(* the tables read at assignment x: qubit q holds bit x of tenv tbl q *)
Definition proj (x : N) (tbl : list N) : nat -> bool := fun q => N.testbit (nth q tbl 0%N) x.

Lemma ctrl_tt_spec m x tbl cs : N.testbit m x = true ->
  N.testbit (ctrl (tt_alg m) tbl cs) x = forallb (proj x tbl) cs.
Proof.
  intros Hm. induction cs as [|c cs IH]; [exact Hm|].
  change (ctrl (tt_alg m) tbl (c :: cs)) with (N.land (nth c tbl 0%N) (ctrl (tt_alg m) tbl cs)).
  cbn [forallb]. rewrite N.land_spec, IH. reflexivity.
Qed.

(* the table simulation, read at assignment x, is the reference simulation *)
Lemma sim_tt_gen m x c : N.testbit m x = true -> forall tbl f, (forall q, proj x tbl q = f q) ->
  opt_rel (fun t' f' => forall q, proj x t' q = f' q) (sim (tt_alg m) tbl c) (fsim f c).
Proof.
  intros Hm. induction c as [|g c IH]; intros tbl f H; cbn [sim fsim]; [exact H|].
  destruct (cact_of g) as [cs t| |]; [|now apply IH|exact I].
  apply IH. intros q. unfold fflip. rewrite <- !H, <- (forallb_ext_in _ f cs (fun x _ => H x)).
  unfold proj, flip. cbn [b_false tt_alg]. rewrite nth_upd.
  destruct (Nat.eqb q t); [|reflexivity].
  cbn [b_xor tt_alg]. now rewrite N.lxor_spec, ctrl_tt_spec by exact Hm.
Qed.

Lemma sim_tt_spec m x c : N.testbit m x = true -> forall tbl,
  opt_rel (fun t' f' => forall q, proj x t' q = f' q) (sim (tt_alg m) tbl c) (fsim (proj x tbl) c).
Proof. intros Hm tbl. now apply sim_tt_gen. Qed.

(* a generic verified check: final tables against expected tables *)
Definition check_circuit (m : N) (init : list N) (c : circuit) (expected : list (nat * N)) : option N :=
  match sim (tt_alg m) init c with
  | None => None
  | Some ft => Some (fold_right (fun qe acc => N.lor (tt_diff m (nth (fst qe) ft 0%N) (snd qe)) acc) 0%N expected)
  end.

Lemma lor_fold_zero {X} (f : X -> N) l :
  fold_right (fun x acc => N.lor (f x) acc) 0%N l = 0%N <-> forall x, In x l -> f x = 0%N.
Proof.
  induction l as [|y r IH]; cbn [fold_right].
  - split; [intros _ x []|reflexivity].
  - rewrite N.lor_eq_0_iff, IH. split.
    + intros [H1 H2] x [<-|Hx]; auto.
    + intros H. split; [apply H; now left|intros x Hx; apply H; now right].
Qed.

Theorem check_circuit_spec m init c expected :
  check_circuit m init c expected = Some 0%N <->
  (exists ft, sim (tt_alg m) init c = Some ft) /\
  forall x, N.testbit m x = true ->
    exists f, fsim (proj x init) c = Some f /\
      forall q e, In (q, e) expected -> f q = N.testbit e x.
Proof.
  unfold check_circuit. destruct (sim (tt_alg m) init c) as [ft|] eqn:Es.
  2: { split; [discriminate|]. intros [[ft H] _]. discriminate. }
  assert (Hs : forall x, N.testbit m x = true ->
            opt_rel (fun t' f' => forall q, proj x t' q = f' q) (Some ft) (fsim (proj x init) c)).
  { intros x Hm. rewrite <- Es. now apply sim_tt_spec. }
  pose proof (lor_fold_zero (fun qe => tt_diff m (nth (fst qe) ft 0%N) (snd qe)) expected) as Hz.
  split.
  - intros [= H]. split; [now exists ft|]. intros x Hm. specialize (Hs x Hm).
    destruct (fsim (proj x init) c) as [f|]; [|contradiction]. exists f. split; [reflexivity|].
    intros q e Hin. apply (proj1 Hz H (q, e)) in Hin. cbn [fst snd] in Hin.
    rewrite tt_diff_spec in Hin. rewrite <- Hs. now apply Hin.
  - intros [_ H]. f_equal. apply Hz. intros [q e] Hin. cbn [fst snd]. apply tt_diff_spec.
    intros x Hm. destruct (H x Hm) as (f & Hf & Hexp). specialize (Hs x Hm). rewrite Hf in Hs.
    now rewrite <- (Hexp q e Hin), <- Hs.
Qed.
