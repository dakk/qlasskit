(* Prop_C05.v — "Values survive the encode -> circuit -> decode round trip".
   Codec layer, for EVERY signature shape (any nesting of tuples) and value:
   the bit string produced for the arguments is the reversal of the flattened
   little-endian bits, and decoding the string read from the output qubits
   (return bit 0 last) inverts the encoding of the value. The circuit part
   (output qubit k holds return bit k) is property C02, decided per program. *)
From Coq Require Import List Bool NArith Arith.
From Coq Require Import Lia.
From QV Require Import Bits M_Codec P_Codec.
Import ListNotations.
Local Open Scope N_scope.

Theorem C05_encode_input_places_bits : forall ts vs s,
  encode_input ts vs = Some s -> exists bits, encode_args ts vs = Some bits /\ s = rev bits /\
    forall k, (k < length bits)%nat -> nth (length bits - 1 - k) s false = nth k bits false.
Proof.
  intros ts vs s. unfold encode_input. destruct (encode_args ts vs) as [bits|]; [|discriminate].
  intros [= <-]. exists bits. repeat split.
  intros k Hk. rewrite rev_nth by lia. f_equal. lia.
Qed.
Print Assumptions C05_encode_input_places_bits.

Theorem C05_encode_args_length : forall ts vs bits,
  wf_list wf_val ts vs = true -> encode_args ts vs = Some bits ->
  length bits = list_sum (map ty_size ts).
Proof.
  intros ts vs bits Hwf Hz.
  assert (HF : Forall roundtrips ts) by (apply Forall_forall; intros t _; apply interpret_val_to_bin).
  exact (proj1 (roundtrip_list ts HF vs bits Hwf Hz)).
Qed.
Print Assumptions C05_encode_args_length.

Theorem C05_decode_inverts_encode : forall t v bits,
  wf_val t v = true -> val_to_bin t v = Some bits ->
  length bits = ty_size t /\ decode_output t (rev bits) = Some v.
Proof. exact decode_output_encode. Qed.
Print Assumptions C05_decode_inverts_encode.

Example C05_example :
  let ts := [TTuple [TQint 2; TBool]; TQfixed 1 2] in
  let vs := [VTuple [VInt 2; VBool true]; VFix (mkdy 5 2)] in
  wf_list wf_val ts vs = true /\
  encode_input ts vs = Some [true; false; true; true; true; false].
Proof. split; reflexivity. Qed.
