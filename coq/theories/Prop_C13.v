(* Prop_C13.v — property C13 "Exports denote the same operation on the same
   qubits", stated against the model M_Export.v of exporter_qasm.py,
   exporter_qiskit.py, exporter_cirq.py, exporter_sympy.py and
   QCircuit.get_key_by_index.  The longer proofs are in P_Export.v.

   QASM is decided completely inside Coq: the printer is modelled down to the
   characters, and the parser of the emitted dialect returns the circuit's gate
   list from the printed text.  For Qiskit / Cirq / Sympy the model ends at the
   sequence of library calls (an abstract op list); what the foreign objects do
   with those calls is read back and compared by the harness, not proved.

   [patched = true] = the code as repaired by fixes 76cffb7 and da1c85e,
   [false] = the code before them (see M_Export.v). *)
From Coq Require Import List Bool NArith ZArith Arith String Ascii.
From QV Require Import Circ M_Export P_Export.
Import ListNotations.
Local Open Scope string_scope.

(* QASM: parsing the printed text returns the gate list, one formal per
   qubit in index order.
   names_ok: the keys of the qubit map are distinct and non-empty, the printed
   phases contain no parenthesis; text_names_ok: the circuit name, the keys and
   the printed phases contain no space or newline. *)
Theorem C13_qasm_roundtrip : forall ver3 gmode name n qm gl txt,
  names_ok qm gl -> text_names_ok name qm gl ->
  qasm_export true ver3 gmode name n qm gl = Some txt ->
  exists formals,
    parse_qasm txt = Some (mkp name formals (expected_gates gl)
                              (if gmode then None else Some (name, map actual (seq 0 n)))) /\
    List.length formals = n /\ NoDup formals /\
    (forall i k, get_key_by_index qm i = Some k -> (i < n)%nat -> nth_error formals i = Some k).
Proof.
  intros ver3 gmode name n qm gl txt H1 H2 H3. unfold qasm_export in H3.
  destruct (qasm_lines true ver3 gmode name n qm gl) as [ls|] eqn:El; [|discriminate].
  injection H3 as <-. unfold parse_qasm.
  rewrite (tokenize_render ls (qasm_tokens_ok ver3 gmode name n qm gl ls H2 El)).
  exact (qasm_roundtrip_lines ver3 gmode name n qm gl ls H1 El).
Qed.
Print Assumptions C13_qasm_roundtrip.

(* the same on lines of tokens, without any condition on separators *)
Theorem C13_qasm_roundtrip_lines : forall ver3 gmode name n qm gl ls,
  names_ok qm gl -> qasm_lines true ver3 gmode name n qm gl = Some ls ->
  exists formals,
    parse_lines ls = Some (mkp name formals (expected_gates gl)
                              (if gmode then None else Some (name, map actual (seq 0 n)))) /\
    List.length formals = n /\ NoDup formals /\
    (forall i k, get_key_by_index qm i = Some k -> (i < n)%nat -> nth_error formals i = Some k).
Proof. exact qasm_roundtrip_lines. Qed.
Print Assumptions C13_qasm_roundtrip_lines.

(* tokenising a rendered text returns the lines of tokens it was rendered from *)
Theorem C13_tokenize_inverts_render : forall ls, tokens_ok ls = true -> tokenize (render ls) = ls.
Proof. exact tokenize_render. Qed.
Print Assumptions C13_tokenize_inverts_render.

Theorem C13_qasm_tokens_have_no_separator : forall ver3 gmode name n qm gl ls,
  text_names_ok name qm gl -> qasm_lines true ver3 gmode name n qm gl = Some ls -> tokens_ok ls = true.
Proof. exact qasm_tokens_ok. Qed.
Print Assumptions C13_qasm_tokens_have_no_separator.

(* the formals the printer declares *)
Theorem C13_qubit_names : forall n qm names,
  NoDup (map fst qm) -> Forall (fun kv => fst kv <> "") qm -> qubit_names n qm = Some names ->
  List.length names = n /\ NoDup names /\ Forall (fun s => s <> "") names /\
  (forall i k, get_key_by_index qm i = Some k -> (i < n)%nat -> nth_error names i = Some k).
Proof. exact qubit_names_spec. Qed.
Print Assumptions C13_qubit_names.

(* the printer before fix 76cffb7 coincides with the repaired one exactly when the map lists
   one name per qubit in index order ... *)
Theorem C13_qasm_today_partial : forall ver3 gmode name n qm gl,
  map snd qm = seq 0 n ->
  qasm_lines false ver3 gmode name n qm gl = qasm_lines true ver3 gmode name n qm gl.
Proof.
  intros ver3 gmode name n qm gl Hs. unfold qasm_lines. rewrite (ordered_names qm n Hs n (le_n n)).
  rewrite firstn_all2 by (rewrite map_length, <- (map_length snd), Hs, seq_length; apply le_n).
  now rewrite (body_lines_ext (get_key_by_index qm) (nth_error (map fst qm)) gl
                 (fun q => ordered_get_key qm q n Hs)).
Qed.
Print Assumptions C13_qasm_today_partial.

(* ... and not on the map of `c = a and b; return (c, c)` *)
Theorem C13_qasm_today_refuted :
  exists txt p, qasm_export false true false "test" 3 alias_qm alias_gl = Some txt /\
    parse_qasm txt = Some p /\
    List.length (p_formals p) = 5 /\
    p_call p = Some ("test", ["q[0]"; "q[1]"; "q[2]"]) /\
    p_gates p = [("ccx", None, [0; 1; 4])].
Proof. eexists. eexists. split; [reflexivity|]. split; [vm_compute; reflexivity|]. repeat split. Qed.
Print Assumptions C13_qasm_today_refuted.

Theorem C13_qasm_patched_on_the_same_input :
  exists txt p, qasm_export true true false "test" 3 alias_qm alias_gl = Some txt /\
    parse_qasm txt = Some p /\ p_formals p = ["a"; "b"; "_ret.1"] /\
    p_gates p = [("ccx", None, [0; 1; 2])].
Proof. eexists. eexists. split; [reflexivity|]. split; [vm_compute; reflexivity|]. repeat split. Qed.
Print Assumptions C13_qasm_patched_on_the_same_input.

Theorem C13_qasm_today_unnamed_qubit_fails :
  qasm_export false true true "t" 2 [("a", 0)] [mkx KCX [0; 1] XNone] = None /\
  exists txt, qasm_export true true true "t" 2 [("a", 0)] [mkx KCX [0; 1] XNone] = Some txt.
Proof. split; [reflexivity|eexists; reflexivity]. Qed.
Print Assumptions C13_qasm_today_unnamed_qubit_fails.

(* Qiskit / Cirq / Sympy: the calls made are, in order, one per gate that is
   not a NopGate, with the gate's declared (controls, base gate), its own qubit
   list and its parameter; barriers only in Qiskit circuit mode.
   xwf: the qubit list has the length the gate class declares (what append enforces). *)
Theorem C13_qiskit_ops_same_gates : forall attrs gmode gl ops,
  forallb xwf gl = true -> export_qiskit attrs gmode gl = XOk ops -> ops = spec_ops (negb gmode) gl.
Proof. intros attrs gmode gl ops Hwf. apply collect_spec; [|exact Hwf]. apply qiskit_gate_spec. Qed.
Print Assumptions C13_qiskit_ops_same_gates.

Theorem C13_cirq_ops_same_gates : forall patched attrs gl ops,
  forallb xwf gl = true -> has attrs "P" = false -> has attrs "MCtrl" = false ->
  export_cirq patched attrs gl = XOk ops -> ops = spec_ops false gl.
Proof. intros patched attrs gl ops Hwf HP HM. apply collect_spec; [|exact Hwf]. intros g o. now apply cirq_gate_spec. Qed.
Print Assumptions C13_cirq_ops_same_gates.

Theorem C13_sympy_ops_same_gates : forall gl ops,
  forallb xwf gl = true -> export_sympy gl = XOk ops -> ops = spec_ops false gl.
Proof. intros gl ops Hwf. apply collect_spec; [|exact Hwf]. apply sympy_gate_spec. Qed.
Print Assumptions C13_sympy_ops_same_gates.

Theorem C13_spec_ops_keep_qubit_lists : forall bars gl,
  flat_map op_qubits (spec_ops bars gl) =
  flat_map (fun g => match canon (xkind g) with Some _ => [xqs g] | None => [] end) gl.
Proof.
  intros bars gl. rewrite spec_ops_flat. induction gl as [|g gl IH]; [reflexivity|].
  cbn [flat_map]. rewrite flat_map_app, IH. f_equal.
  unfold spec_gate, spec_op. destruct (xkind g) as [b| | | | |n|b n| |]; cbn [canon]; try reflexivity.
  destruct bars; reflexivity.
Qed.
Print Assumptions C13_spec_ops_keep_qubit_lists.

Example C13_example_roundtrip :
  let qm := [("a", 0); ("b", 1); ("anc", 3); ("_ret", 2)] in
  let gl := [mkx KCCX [0; 1; 3] XNone; mkx KBarrier [] XNone; mkx KCP [2; 0] (XNum 1 4 "0.25");
             mkx (KMCX 3) [0; 1; 3; 2] XNone] in
  names_ok qm gl /\ text_names_ok "f" qm gl /\
  exists txt, qasm_export true false false "f" 4 qm gl = Some txt /\
    parse_qasm txt = Some (mkp "f" ["a"; "b"; "_ret"; "anc"]
                              [("ccx", None, [0; 1; 3]); ("cp", Some "0.25", [2; 0]); ("cccx", None, [0; 1; 3; 2])]
                              (Some ("f", ["q[0]"; "q[1]"; "q[2]"; "q[3]"]))).
Proof.
  split; [|split].
  - split; [repeat constructor; cbn; intuition discriminate|]. split; [repeat constructor; discriminate|reflexivity].
  - split; [reflexivity|]. split; [repeat constructor|reflexivity].
  - eexists. split; [reflexivity|]. vm_compute. reflexivity.
Qed.

Example C13_example_ops :
  let gl := [mkx (K1 BH) [1] XNone; mkx KBarrier [] XNone; mkx (KMCX 2) [2; 0; 1] XNone;
             mkx KCP [1; 0] (XNum 1 2 "0.50")] in
  forallb xwf gl = true /\
  export_qiskit ["h"; "cp"] false gl =
    XOk [XOp 0 BH [1] None; XBar; XOp 2 BX [2; 0; 1] None; XOp 1 BP [1; 0] (Some (1%Z, 2%N))] /\
  export_cirq true ["H"] gl =
    XOk [XOp 0 BH [1] None; XOp 2 BX [2; 0; 1] None; XOp 1 BP [1; 0] (Some (1%Z, 2%N))] /\
  export_cirq false ["H"] gl = XErr /\
  export_sympy gl = XErr.
Proof. repeat split. Qed.
