(* P_Codec.v — the codec model M_Codec.v against Bits: int(s, 2) of a bit string is bits_val
   (be_val for a big-endian list), bin() written back at a width is nbits, so each type's
   from_bool inverts its to_bool; then, by induction on the type, interpret inverts val_to_bin
   on every nesting of tuples, and decode_output inverts the encoding. *)
From Coq Require Import List Bool NArith Arith Lia.
From QV Require Import Bits M_Codec.
Import ListNotations.
Local Open Scope N_scope.

Lemma firstn_app_exact {A} (a b : list A) n : length a = n -> firstn n (a ++ b) = a.
Proof. intros <-. rewrite firstn_app, Nat.sub_diag, firstn_all. cbn [firstn]. apply app_nil_r. Qed.

Lemma skipn_app_exact {A} (a b : list A) n : length a = n -> skipn n (a ++ b) = b.
Proof. intros <-. rewrite skipn_app, Nat.sub_diag, skipn_all. reflexivity. Qed.

Lemma is1_ch_of_bool b : is1 (ch_of_bool b) = b.
Proof. now destruct b. Qed.

Lemma map_is1_ch l : map is1 (map ch_of_bool l) = l.
Proof. induction l as [|b l IH]; cbn [map]; [reflexivity|now rewrite is1_ch_of_bool, IH]. Qed.

Lemma py_int2_snoc s c : py_int2 (s ++ [c]) = 2 * py_int2 s + N.b2n (is1 c).
Proof. unfold py_int2. now rewrite fold_left_app. Qed.

Lemma py_int2_rev_bits v : py_int2 (bool_list_to_bin (rev v)) = bits_val v.
Proof.
  unfold bool_list_to_bin.
  induction v as [|b v IH]; cbn [rev bits_val]; [reflexivity|].
  rewrite map_app. cbn [map]. rewrite py_int2_snoc, IH, is1_ch_of_bool. lia.
Qed.

Lemma py_int2_rev_string v : py_int2 (rev (bool_list_to_bin v)) = bits_val v.
Proof. unfold bool_list_to_bin. rewrite <- map_rev. apply py_int2_rev_bits. Qed.

(* big-endian value, structurally *)
Fixpoint be_val (l : list bool) : N :=
  match l with [] => 0 | b :: r => N.b2n b * 2 ^ N.of_nat (length r) + be_val r end.

Lemma be_val_bits l : be_val l = bits_val (rev l).
Proof.
  induction l as [|b r IH]; cbn [be_val rev]; [reflexivity|].
  rewrite bits_val_app, rev_length, IH. cbn [bits_val]. lia.
Qed.

Lemma py_int2_be l : py_int2 (bool_list_to_bin l) = be_val l.
Proof. rewrite be_val_bits, <- py_int2_rev_bits, rev_involutive. reflexivity. Qed.

Lemma be_val_bound l : be_val l < 2 ^ N.of_nat (length l).
Proof. rewrite be_val_bits, <- rev_length. apply bits_val_bound. Qed.

Lemma nbits_zero b : nbits b 0 = repeat false b.
Proof. induction b as [|b IH]; cbn [nbits repeat N.odd N.div2]; [reflexivity|]. now rewrite IH. Qed.

Lemma div2_lt v a : v < 2 ^ N.of_nat (S a) -> N.div2 v < 2 ^ N.of_nat a.
Proof.
  rewrite Nat2N.inj_succ, N.pow_succ_r', N.div2_div. intros H.
  apply N.div_lt_upper_bound; lia.
Qed.

Lemma nbits_extend a b v : v < 2 ^ N.of_nat a -> nbits (a + b) v = nbits a v ++ repeat false b.
Proof.
  revert v; induction a as [|a IH]; intros v Hv.
  - cbn in Hv. assert (v = 0) by lia. subst. apply nbits_zero.
  - cbn [Nat.add nbits app]. f_equal. apply IH. now apply div2_lt.
Qed.

Lemma rev_repeat {A} (x : A) n : rev (repeat x n) = repeat x n.
Proof. induction n as [|n IH]; [reflexivity|]. cbn [repeat rev]. now rewrite IH, <- repeat_cons. Qed.

Lemma size_le_width v w : 0 < v -> v < 2 ^ N.of_nat w -> (N.to_nat (N.size v) <= w)%nat.
Proof.
  intros H0 Hv. rewrite N.size_log2 by lia.
  apply N.log2_lt_pow2 in Hv; lia.
Qed.

Lemma lt_pow2_size v : v < 2 ^ N.of_nat (N.to_nat (N.size v)).
Proof. rewrite N2Nat.id. apply N.size_gt. Qed.

(* bin(v)[2:] reversed and zero-filled to a width that holds v is the little-endian expansion *)
Lemma bin_digits_pad w v : (0 < w)%nat -> v < 2 ^ N.of_nat w ->
  (length (bin_digits v) <= w)%nat /\
  rev (bin_digits v) ++ repeat false (w - length (bin_digits v)) = nbits w v.
Proof.
  intros Hw Hv. destruct v as [|p].
  - cbn [bin_digits length rev app]. split; [exact Hw|].
    rewrite nbits_zero. destruct w as [|w]; [lia|]. now rewrite Nat.sub_succ, Nat.sub_0_r.
  - pose proof (size_le_width (N.pos p) w eq_refl Hv) as Hs. unfold bin_digits.
    rewrite rev_length, nbits_length, rev_involutive. split; [exact Hs|].
    rewrite <- nbits_extend by apply lt_pow2_size. f_equal. lia.
Qed.

(* bin(v) read back at width w, little-endian *)
Lemma bin_to_bool_list_py_bin w v :
  v < 2 ^ N.of_nat w -> rev (bin_to_bool_list (py_bin v) (Some w)) = nbits w v.
Proof.
  intros Hv. destruct w as [|w]; [now replace v with 0 by (cbn in Hv; lia)|].
  destruct (bin_digits_pad (S w) v (Nat.lt_0_succ w) Hv) as [Hl Hp].
  unfold bin_to_bool_list, py_bin. cbn [strip0b].
  rewrite firstn_all2 by now rewrite map_length.
  now rewrite map_is1_ch, rev_app_distr, rev_repeat.
Qed.

Lemma qint_to_bool_spec w v : v < 2 ^ N.of_nat w -> qint_to_bool w v = nbits w v.
Proof. apply bin_to_bool_list_py_bin. Qed.

Lemma qint_to_bool_length w v : v < 2 ^ N.of_nat w -> length (qint_to_bool w v) = w.
Proof. intros Hv. rewrite qint_to_bool_spec by exact Hv. apply nbits_length. Qed.

Lemma qint_from_bool_spec w l : qint_from_bool w l = bits_val l mod 2 ^ N.of_nat w.
Proof. unfold qint_from_bool, qint_new. now rewrite py_int2_rev_bits. Qed.

Lemma qint_from_bool_range w l : qint_from_bool w l < 2 ^ N.of_nat w.
Proof. rewrite qint_from_bool_spec. apply N.mod_lt, pow2_nz. Qed.

Lemma bits_val_qint_to_bool w v : v < 2 ^ N.of_nat w -> bits_val (qint_to_bool w v) = v.
Proof. intros Hv. rewrite qint_to_bool_spec by exact Hv. now apply bits_val_nbits_small. Qed.

Lemma qint_from_to w v : v < 2 ^ N.of_nat w -> qint_from_bool w (qint_to_bool w v) = v.
Proof.
  intros Hv. rewrite qint_from_bool_spec, bits_val_qint_to_bool by exact Hv. now apply N.mod_small.
Qed.

Lemma fill_b_spec w l : fill_b w l = l ++ repeat false (w - length l).
Proof.
  unfold fill_b. destruct (Nat.leb_spec w (length l)) as [Hle|Hlt]; [|reflexivity].
  replace (w - length l)%nat with 0%nat by lia. cbn [repeat]. now rewrite app_nil_r.
Qed.

Lemma fill_b_rev_bin_digits w v : (0 < w)%nat -> v < 2 ^ N.of_nat w ->
  fill_b w (rev (bin_digits v)) = nbits w v.
Proof.
  intros Hw Hv. destruct (bin_digits_pad w v Hw Hv) as [_ Hp].
  rewrite fill_b_spec, rev_length. exact Hp.
Qed.

Lemma qint_const_spec w v : (0 < w)%nat -> qint_const w v = nbits w (v mod 2 ^ N.of_nat w).
Proof.
  intros Hw. unfold qint_const, py_bin. cbn [skipn]. rewrite map_is1_ch.
  apply fill_b_rev_bin_digits; [exact Hw|]. apply N.mod_lt, pow2_nz.
Qed.

Lemma qint_amp_onehot w v : v < 2 ^ N.of_nat w ->
  qint_amp w v = (2 ^ N.of_nat w, bits_val (qint_to_bool w v)).
Proof. intros Hv. unfold qint_amp. now rewrite bits_val_qint_to_bool. Qed.

(* a Qchar is encoded as a Qint[8]; it is decoded without the reduction modulo 2^8 *)
Lemma qchar_from_bool_spec l : qchar_from_bool l = bits_val l.
Proof. apply py_int2_rev_string. Qed.

Lemma qchar_from_to c : c < 2 ^ 8 -> qchar_from_bool (qchar_to_bool c) = c.
Proof. intros Hc. rewrite qchar_from_bool_spec. exact (bits_val_qint_to_bool 8 c Hc). Qed.

Lemma qchar_const_runtime c : c < 2 ^ 8 -> qchar_const c = qchar_to_bool c.
Proof.
  intros Hc. rewrite (qint_to_bool_spec 8 c Hc : qchar_to_bool c = _).
  unfold qchar_const, bin_to_bool_list, py_bin. cbn [strip0b].
  rewrite firstn_all, !map_length, Nat.sub_diag. cbn [repeat app]. rewrite map_is1_ch.
  apply (fill_b_rev_bin_digits 8 c); [lia|exact Hc].
Qed.

Lemma b2n_eqb1 b : (N.b2n b =? 1) = b.
Proof. now destruct b. Qed.

(* the loop reads the dyadic rational, not its representation *)
Lemma frac_loop_scale k : forall n e d,
  frac_loop k (mkdy (n * 2 ^ N.of_nat d) (e + d)) = frac_loop k (mkdy n e).
Proof.
  induction k as [|k IH]; intros n e d; cbn [frac_loop]; [reflexivity|].
  unfold dy_dbl, dy_mod1, dy_int. cbn [dnum dexp].
  rewrite Nat2N.inj_add, N.pow_add_r, N.mul_mod_distr_r, N.mul_assoc, N.div_mul_cancel_r by apply pow2_nz.
  f_equal. apply IH.
Qed.

Lemma frac_loop_be_val l : forall q,
  frac_loop (length l) (mkdy (q * 2 ^ N.of_nat (length l) + be_val l) (length l)) = l.
Proof.
  induction l as [|b r IH]; intros q; [reflexivity|]. cbn [length frac_loop be_val].
  unfold dy_dbl, dy_mod1, dy_int. cbn [dnum dexp]. set (n := length r).
  pose proof (be_val_bound r) as Hr. fold n in Hr.
  assert (Hb : N.b2n b * 2 ^ N.of_nat n + be_val r < 2 ^ N.of_nat (S n))
    by (rewrite Nat2N.inj_succ, N.pow_succ_r'; destruct b; cbn [N.b2n]; lia).
  rewrite N.add_comm, N.mod_add, (N.mod_small _ _ Hb) by apply pow2_nz. f_equal.
  - rewrite Nat2N.inj_succ, N.pow_succ_r', N.div_mul_cancel_l by (try apply pow2_nz; discriminate).
    rewrite N.div_add_l, (N.div_small _ _ Hr), N.add_0_r by apply pow2_nz. apply b2n_eqb1.
  - rewrite (N.mul_comm 2), <- (Nat.add_1_r n). rewrite (frac_loop_scale n _ n 1). apply IH.
Qed.

Lemma frac_loop_val f q r : r < 2 ^ N.of_nat f ->
  frac_loop f (mkdy (q * 2 ^ N.of_nat f + r) f) = rev (nbits f r).
Proof.
  intros Hr. pose proof (frac_loop_be_val (rev (nbits f r)) q) as H.
  now rewrite rev_length, nbits_length, be_val_bits, rev_involutive, bits_val_nbits_small in H.
Qed.

Lemma rev_nbits_be l : rev (nbits (length l) (be_val l)) = l.
Proof. rewrite be_val_bits, <- (rev_length l), nbits_bits_val. apply rev_involutive. Qed.

(* decoding reads integer part * 2^f + fraction; encoding such a number writes the two parts *)
Lemma qfixed_from_bool_spec i f v :
  qfixed_from_bool i f v =
  mkdy (bits_val (firstn i v) * 2 ^ N.of_nat (length (skipn i v)) + be_val (skipn i v)) (length (skipn i v)).
Proof. unfold qfixed_from_bool. now rewrite py_int2_rev_bits, py_int2_be. Qed.

Lemma qfixed_to_bool_spec i f q r : q < 2 ^ N.of_nat i -> r < 2 ^ N.of_nat f ->
  qfixed_to_bool i f (mkdy (q * 2 ^ N.of_nat f + r) f) = nbits i q ++ rev (nbits f r).
Proof.
  intros Hq Hr. unfold qfixed_to_bool, dy_int. cbn [dnum dexp].
  rewrite N.div_add_l, (N.div_small _ _ Hr), N.add_0_r, (N.mod_small _ _ Hq) by apply pow2_nz.
  now rewrite bin_to_bool_list_py_bin, frac_loop_val.
Qed.

Lemma qfixed_from_to i f n : n < 2 ^ N.of_nat (i + f) ->
  qfixed_from_bool i f (qfixed_to_bool i f (mkdy n f)) = mkdy n f.
Proof.
  intros Hn.
  assert (Hq : n / 2 ^ N.of_nat f < 2 ^ N.of_nat i).
  { apply N.div_lt_upper_bound; [apply pow2_nz|]. now rewrite <- N.pow_add_r, <- Nat2N.inj_add, Nat.add_comm. }
  pose proof (N.mod_lt n _ (pow2_nz f)) as Hr.
  replace n with (n / 2 ^ N.of_nat f * 2 ^ N.of_nat f + n mod 2 ^ N.of_nat f)
    by (rewrite N.mul_comm; symmetry; apply N.div_mod').
  rewrite qfixed_to_bool_spec by assumption.
  rewrite qfixed_from_bool_spec, firstn_app_exact, skipn_app_exact by apply nbits_length.
  now rewrite rev_length, nbits_length, be_val_bits, rev_involutive, !bits_val_nbits_small.
Qed.

Lemma frac_loop_length f x : length (frac_loop f x) = f.
Proof. revert x; induction f as [|f IH]; intros x; cbn [frac_loop length]; [reflexivity|now rewrite IH]. Qed.

Lemma qfixed_to_bool_length i f x : length (qfixed_to_bool i f x) = (i + f)%nat.
Proof.
  unfold qfixed_to_bool. rewrite app_length, frac_loop_length.
  rewrite bin_to_bool_list_py_bin, nbits_length; [reflexivity|].
  apply N.mod_lt, pow2_nz.
Qed.

Lemma const_int_search_spec ws v w bits :
  Forall (fun w => 0 < w)%nat ws ->
  const_int_search ws v = Some (w, bits) ->
  In w ws /\ v < 2 ^ N.of_nat w /\ bits = nbits w v /\
  (forall pre post, ws = pre ++ w :: post -> ~ In w pre -> Forall (fun w' => 2 ^ N.of_nat w' <= v) pre).
Proof.
  induction ws as [|w0 r IH]; intros Hpos H; [discriminate|].
  cbn [const_int_search] in H. inversion Hpos as [|? ? Hw0 Hr]; subst.
  destruct (N.ltb_spec v (2 ^ N.of_nat w0)) as [Hlt|Hge].
  - injection H as <- <-. repeat split; [now left|exact Hlt| |].
    + rewrite qint_const_spec by exact Hw0. now rewrite N.mod_small.
    + intros pre post E Hnin. destruct pre as [|p pre]; [constructor|].
      injection E as -> E. exfalso. apply Hnin. now left.
  - destruct (IH Hr H) as (Hin & Hlt & Hb & Hpre). repeat split; [now right|exact Hlt|exact Hb|].
    intros pre post E Hnin. destruct pre as [|p pre]; [constructor|].
    injection E as -> E. constructor; [exact Hge|]. apply (Hpre pre post E).
    intros Hc. apply Hnin. now right.
Qed.

Section ty_ind2.
  Variable P : ty -> Prop.
  Hypotheses (Hb : P TBool) (Hi : forall w, P (TQint w)) (Hf : forall i f, P (TQfixed i f))
             (Hc : P TQchar) (Ht : forall l, Forall P l -> P (TTuple l)).
  Fixpoint ty_ind2 (t : ty) : P t :=
    match t with
    | TBool => Hb | TQint w => Hi w | TQfixed i f => Hf i f | TQchar => Hc
    | TTuple l => Ht l ((fix go (l : list ty) : Forall P l :=
                           match l with
                           | [] => Forall_nil _
                           | x :: r => Forall_cons x (ty_ind2 x) (go r)
                           end) l)
    end.
End ty_ind2.

Definition roundtrips (t : ty) : Prop :=
  forall v bits, wf_val t v = true -> val_to_bin t v = Some bits ->
    length bits = ty_size t /\ forall rest, interpret t (bits ++ rest) (ty_size t) = Some v.

Lemma roundtrip_list ts : Forall roundtrips ts ->
  forall vs bits, wf_list wf_val ts vs = true -> zip_bin val_to_bin ts vs = Some bits ->
    length bits = list_sum (map ty_size ts) /\
    forall pre rest, interp_list interpret ty_size (pre ++ bits ++ rest) ts (length pre) = Some vs.
Proof.
  induction 1 as [|t ts Ht Hts IH]; intros vs bits Hwf Hz.
  - destruct vs; [|discriminate]. cbn in Hz. injection Hz as <-. split; [reflexivity|]. reflexivity.
  - destruct vs as [|v vs]; [discriminate|].
    cbn [wf_list] in Hwf. apply andb_true_iff in Hwf as [Hw1 Hw2].
    cbn [zip_bin] in Hz.
    destruct (val_to_bin t v) as [a|] eqn:Ea; [|discriminate].
    destruct (zip_bin val_to_bin ts vs) as [b|] eqn:Eb; [|discriminate].
    injection Hz as <-.
    destruct (Ht v a Hw1 Ea) as [Hla Hia]. destruct (IH vs b Hw2 Eb) as [Hlb Hib].
    split; [rewrite app_length; cbn [map list_sum]; rewrite Hla, Hlb; reflexivity|].
    intros pre rest. cbn [interp_list].
    rewrite skipn_app_exact by reflexivity. rewrite <- app_assoc.
    rewrite firstn_app_exact by exact Hla.
    replace a with (a ++ []) at 1 by apply app_nil_r. rewrite Hia.
    specialize (Hib (pre ++ a) rest). rewrite app_length, Hla in Hib.
    rewrite <- !app_assoc in Hib. rewrite Hib. reflexivity.
Qed.

Theorem interpret_val_to_bin t : roundtrips t.
Proof.
  induction t as [| w | i f | | l IH] using ty_ind2; intros v bits Hwf Hv.
  - destruct v; try discriminate. injection Hv as <-. split; [reflexivity|]. reflexivity.
  - destruct v; try discriminate. injection Hv as <-. cbn [wf_val] in Hwf.
    apply andb_true_iff in Hwf as [_ Hn]. apply N.ltb_lt in Hn.
    pose proof (qint_to_bool_length w n Hn) as Hlen. split; [exact Hlen|]. intros rest. cbn [interpret ty_size].
    rewrite firstn_app_exact by exact Hlen. now rewrite qint_from_to.
  - destruct v as [| |x| |]; try discriminate. injection Hv as <-. cbn [wf_val] in Hwf.
    apply andb_true_iff in Hwf as [He Hn]. apply Nat.eqb_eq in He. apply N.ltb_lt in Hn.
    destruct x as [n k]. cbn [dexp dnum] in *. subst k.
    split; [apply qfixed_to_bool_length|]. intros rest. cbn [interpret ty_size].
    rewrite firstn_app_exact by apply qfixed_to_bool_length. now rewrite qfixed_from_to.
  - destruct v; try discriminate. injection Hv as <-. cbn [wf_val] in Hwf. apply N.ltb_lt in Hwf.
    pose proof (qint_to_bool_length 8 c Hwf : length (qchar_to_bool c) = 8%nat) as Hlen. split; [exact Hlen|]. intros rest. cbn [interpret ty_size].
    rewrite firstn_app_exact by exact Hlen. now rewrite qchar_from_to.
  - destruct v as [| | | |vs]; try discriminate. cbn [wf_val] in Hwf. cbn [val_to_bin] in Hv.
    destruct (roundtrip_list l IH vs bits Hwf Hv) as [Hlen Hint].
    split; [exact Hlen|]. intros rest. cbn [interpret].
    specialize (Hint [] rest). cbn [app length] in Hint. now rewrite Hint.
Qed.

(* interpret_as_qtype takes the string reversed and told its length: decode_output and the
   decode_samples of bqm.py both call it so *)
Lemma interpret_as_qtype_rev t v bits : wf_val t v = true -> val_to_bin t v = Some bits ->
  interpret_as_qtype (rev bits) t (Some (length bits)) = Some v.
Proof.
  intros Hwf Hv. destruct (interpret_val_to_bin t v bits Hwf Hv) as [Hlen Hint].
  unfold interpret_as_qtype. cbn [format_outcome].
  rewrite rev_length, Hlen, Nat.ltb_irrefl, rev_involutive.
  specialize (Hint []). now rewrite app_nil_r in Hint.
Qed.

(* the measured string: QlassF.decode_output of the reversed encoding is the value *)
Theorem decode_output_encode t v bits :
  wf_val t v = true -> val_to_bin t v = Some bits ->
  length bits = ty_size t /\ decode_output t (rev bits) = Some v.
Proof.
  intros Hwf Hv. pose proof (proj1 (interpret_val_to_bin t v bits Hwf Hv)) as Hlen. split; [exact Hlen|].
  unfold decode_output. cbn [format_outcome]. rewrite !rev_involutive, <- Hlen.
  now apply interpret_as_qtype_rev.
Qed.
