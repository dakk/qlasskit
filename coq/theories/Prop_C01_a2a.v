(* Prop_C01_a2a.v — property C01, NORMALISER layer: qlasskit.ast2ast (ConstantFolder,
   ReplaceMultiTargetAssign, ASTRewriter, ConstantFolder — as modelled in M_A2A.v, tied to
   /repo by the exact correspondence run of harness/c01_a2a.py) preserves the meaning of the
   source program it hands to the translator.  The long proofs are in P_A2A.v.

   Vocabulary (definitions in M_A2A.v / P_A2A.v):
     exp, stmt, fundef     the accepted fragment of Python (source AND normalised programs)
     a2a f                 the four passes in the order ast2ast.py applies them:
                           Ok body | Raise (the Python code raises) | Unmod (the model declines)
     fold_list, multi_list, rw_list          the single passes
     run ext body rho      the reference evaluator: the value the statement list returns from the
                           environment rho (bool / unbounded int / tuple; None = no value: an
                           exception, a float or str, falling off the end); ext interprets calls of
                           names that are not builtins
     a2a_guard f           THE decidable guard (evaluated on every program of the correspondence
                           run): no name starts with `__`, `_temptup`, `_iftarg`, `_forit`; bool / int constants only; no `**`; a
                           subscript is indexed by a constant or by the variable of an enclosing loop
                           over range / constants; no call of abs / print / ord / chr, range only as a
                           loop iterator, len / sum / all / any / min / max only of ONE typed tuple
                           argument (sum: >= 2 elements; all / any: >= 1 element, all annotated bool;
                           min / max: >= 1 element, all annotated bool or all Qint[..]); a tuple target only with
                           a literal tuple / list of the same length, or a typed tuple argument of that
                           length, on the right; loops over range(...), over a literal tuple / list of
                           bool / int constants, or over a typed tuple argument; the typed tuple
                           arguments (annotation Tuple[...], which is what Qlist / Qmatrix become)
                           are never re-bound
     plen_of f a           the length of the typed tuple argument a (None: not one)
     conforms f rho        rho gives every typed tuple argument a tuple of the annotated length, of
                           booleans / integers when all its elements are annotated bool / Qint[..]
     pbool_of, pint_of     the typed tuple arguments all of whose elements are annotated bool / Qint[..]
     gstmt okn plen pbool pint lv s   the same guard with [okn] the admissible names, [plen] [pbool]
                           [pint] the typed tuple arguments and their kinds, [lv] the index-capable loop variables
     bsim plen rho0 P f g  backward simulation: whenever g (the rewritten code) has an outcome from an
                           environment in which the typed arguments have their initial value (rho0),
                           f (the original) has one from every environment agreeing with it on the
                           names P selects: same returned value, again agreeing, typed arguments kept
     normal_form l         only `name = e`, `return e` and expression statements are left
   Direction: "normalised has a value  ==>  source has the same value".  The converse is FALSE
   inside the guard (C01a_forward_refuted: a name assigned in one branch only) and the unguarded
   statement is still FALSE of the model over UNTYPED values (C01a_preserves_refuted: all(a) over
   integers), but no program the library ACCEPTS is known to be mis-translated: the eight programs
   that exercise the defects repaired in /repo by cc7fed2 .. e979369 are the Examples
   `repaired_*` / `rejected_reserved_*` below. *)
From Coq Require Import List Bool NArith ZArith Arith String.
From QV Require Import M_A2A P_A2A.
Import ListNotations.
Local Open Scope string_scope.

(* whatever the normaliser returns has no If / For / AugAssign / tuple-target statement left *)
Theorem C01a_normal_form : forall f b', a2a f = Ok b' -> normal_form b' = true.
Proof.
  intros f b' H. destruct (a2a_ok _ _ H) as (_ & b1 & b2 & b3 & st3 & _ & _ & H3 & H4).
  exact (fold_normal _ _ (rw_list_normal_of _ (rw_stmt_normal rw_fuel) _ _ _ _ H3) H4).
Qed.
Print Assumptions C01a_normal_form.

(* THE theorem: inside the guard, for every environment and every interpretation of the
   non-builtin calls, a value of the normalised program is the value of the source program *)
Theorem C01a_backward : forall ext f b',
  a2a_guard f = true -> a2a f = Ok b' ->
  forall rho, conforms f rho ->
  forall v, run ext b' rho = Some v -> run ext (f_body f) rho = Some v.
Proof. exact a2a_backward. Qed.
Print Assumptions C01a_backward.

(* conformance is decided on the arguments *)
Theorem C01a_conforms_check : forall f rho, conforms_b f rho = true -> conforms f rho.
Proof. exact conforms_check. Qed.
Print Assumptions C01a_conforms_check.

(* ConstantFolder: the folded list has exactly the outcome of the original (both directions) *)
Theorem C01a_fold_preserves : forall plen pbool pint ext okn lv b b',
  forallb (gstmt okn plen pbool pint lv) b = true -> fold_list b = Ok b' ->
  (forall rho, exec_list ext b' rho = exec_list ext b rho) /\ forallb (gstmt okn plen pbool pint lv) b' = true.
Proof. exact fold_list_sound. Qed.
Print Assumptions C01a_fold_preserves.

(* ReplaceMultiTargetAssign: a, b = e1, e2  becomes  _temptup = (e1, e2); a = _temptup[0]; ... *)
Theorem C01a_multi_preserves : forall plen,
  (forall a, prot plen a = true -> user_name a = true) ->
  forall rho0, (forall a n, plen a = Some n -> exists vs, rho0 a = Some (VTup vs) /\ List.length vs = n) ->
  forall pbool pint ext lv b b',
  forallb (gstmt user_name plen pbool pint lv) b = true -> multi_list b = Ok b' ->
  forallb (gstmt visible plen pbool pint lv) b' = true /\
  bsim plen rho0 user_name (exec_list ext b) (exec_list ext b').
Proof. exact multi_list_sound. Qed.
Print Assumptions C01a_multi_preserves.

(* ASTRewriter: if-flattening into _iftargN + conditional expressions, the __x temporaries of
   self-referencing and augmented assignments, loop unrolling with substitution of the loop variable *)
Theorem C01a_rewriter_preserves : forall plen,
  (forall a, prot plen a = true -> user_name a = true) ->
  forall rho0, (forall a n, plen a = Some n -> exists vs, rho0 a = Some (VTup vs) /\ List.length vs = n) ->
  forall pbool, (forall a, pbool a = true -> exists vs, rho0 a = Some (VTup vs) /\ forallb is_vbool vs = true) ->
  forall pint, (forall a, pint a = true -> exists vs, rho0 a = Some (VTup vs) /\ forallb is_vint vs = true) ->
  forall ext b st l st',
  forallb (gstmt visible plen pbool pint []) b = true -> forallb notup b = true -> st_ok plen st ->
  rw_list rw_fuel st b = Ok (l, st') -> rw_post plen rho0 pbool pint ext st l st' (exec_list ext b).
Proof. exact rw_list_sound. Qed.
Print Assumptions C01a_rewriter_preserves.

(* the unguarded statement is false of the faithful model over untyped values (the same witness
   as C01a_refuted_all_over_ints below, with `v <> v'` for `val_eqb v v' = false`) *)
Theorem C01a_preserves_refuted :
  exists f rho b' v v', a2a f = Ok b' /\ run no_ext b' rho = Some v /\
                        run no_ext (f_body f) rho = Some v' /\ v <> v'.
Proof.
  exists wit_all, wit_all_env. eexists. exists (VInt 3), (VBool true).
  repeat split; try (vm_compute; reflexivity). discriminate.
Qed.
Print Assumptions C01a_preserves_refuted.

(* the witness: all(a) over integers becomes a[0] and a[1] (3, not True).  The translator rejects
   the program (operands of `and` must be bool): the statement is false of the UNTYPED model, no
   accepted program is known to be mis-translated *)
Theorem C01a_refuted_all_over_ints : differ wit_all wit_all_env.
Proof. unfold differ. eexists. exists (VInt 3), (VBool true). repeat split; vm_compute; reflexivity. Qed.
Print Assumptions C01a_refuted_all_over_ints.

(* the reserved prefixes _temptup / _iftarg / _forit are rejected before any pass *)
Theorem C01a_reserved_rejected : forall f b', a2a f = Ok b' -> fun_reserved f = false.
Proof. intros f b' H. exact (proj1 (a2a_ok _ _ H)). Qed.
Print Assumptions C01a_reserved_rejected.

(* inside the guard the converse of C01a_backward fails: a name assigned in one branch only.
   def f(c: bool) -> bool:  if c: x = True;  return c      (c = False) *)
Theorem C01a_forward_refuted :
  exists f rho b' v, a2a_guard f = true /\ a2a f = Ok b' /\
                     run no_ext (f_body f) rho = Some v /\ run no_ext b' rho = None.
Proof.
  exists (mkfun [("c", ann_bool)] ann_bool
                [SIf (EName "c") [SAssign (TName "x") (EConst (CBool true))] []; SReturn (EName "c")]),
         (env_of [("c", VBool false)]).
  eexists. exists (VBool false). repeat split; vm_compute; reflexivity.
Qed.
Print Assumptions C01a_forward_refuted.

(* non-vacuity:
   def ex(a: bool, b: bool, x: Qint[2], y: Qint[2]) -> Qint[4]:
       p = 0
       a, b = b, a
       if a:
           x = x + 1
           a = not a
       elif b:
           x += 2
       else:
           y = x
       for i in range(3):
           if i >= 1:
               p = p + x
       return p + y *)
Definition ex_fun : fundef :=
  (mkfun [("a", (Some (EName "bool"))); ("b", (Some (EName "bool"))); ("x", (Some (ESubscript (EName "Qint") (EConst (CInt (Zpos (xO xH))))))); ("y", (Some (ESubscript (EName "Qint") (EConst (CInt (Zpos (xO xH)))))))] (Some (ESubscript (EName "Qint") (EConst (CInt (Zpos (xO (xO xH))))))) [(SAssign (TName "p") (EConst (CInt Z0))); (SAssign (TTuple [(EName "a"); (EName "b")]) (ETuple [(EName "b"); (EName "a")])); (SIf (EName "a") [(SAssign (TName "x") (EBinOp Add (EName "x") (EConst (CInt (Zpos xH))))); (SAssign (TName "a") (EUnOp Not (EName "a")))] [(SIf (EName "b") [(SAugAssign "x" Add (EConst (CInt (Zpos (xO xH)))))] [(SAssign (TName "y") (EName "x"))])]); (SFor "i" (ECall "range" [(EConst (CInt (Zpos (xI xH))))]) [(SIf (ECompare GtE (EName "i") (EConst (CInt (Zpos xH)))) [(SAssign (TName "p") (EBinOp Add (EName "p") (EName "x")))] [])] []); (SReturn (EBinOp Add (EName "p") (EName "y")))]).
Definition ex_env : env := env_of [("a", VBool false); ("b", VBool true); ("x", VInt 2); ("y", VInt 3)].

(* the guard of C01a_backward holds, the normaliser succeeds, the normalised program has a value *)
Example ex_in_guard : a2a_guard ex_fun = true.
Proof. vm_compute. reflexivity. Qed.
Example ex_rewritten : match a2a ex_fun with Ok b' => run no_ext b' ex_env | _ => None end = Some (VInt 9).
Proof. vm_compute. reflexivity. Qed.
Example ex_source : run no_ext (f_body ex_fun) ex_env = Some (VInt 9).
Proof. vm_compute. reflexivity. Qed.
(* the normalised program really has the temporaries the theorem is about *)
Example ex_shape :
  match a2a ex_fun with
  | Ok b' => (normal_form b', List.length b',
              existsb (fun s => match s with SAssign (TName y) _ => String.eqb y "_temptup" | _ => false end) b',
              existsb (fun s => match s with SAssign (TName y) _ => String.eqb y "_iftarg3" | _ => false end) b',
              existsb (fun s => match s with SAssign (TName y) _ => String.eqb y "__x" | _ => false end) b')
  | _ => (false, 0%nat, false, false, false)
  end = (true, 26%nat, true, true, true).
Proof. vm_compute. reflexivity. Qed.

(* the regression programs for the repairs cc7fed2 .. d025bfb of /repo
   (t, a = t;  t = (a, b); a = not a; t[u[0]];  the same under an if;  for x in m[0] of a 2 x 3
   matrix;  for x in a with a re-bound in the body): each is normalised to a program with
   the value of the source *)
Example repaired_multi_target : agree wit_multi wit_multi_env (VBool true).
Proof. unfold agree. eexists. repeat split; vm_compute; reflexivity. Qed.
Example repaired_tuple_alias : agree wit_alias wit_alias_env (VBool true).
Proof. unfold agree. eexists. repeat split; vm_compute; reflexivity. Qed.
Example repaired_tuple_flow : agree wit_flow wit_flow_env (VBool true).
Proof. unfold agree. eexists. repeat split; vm_compute; reflexivity. Qed.
Example repaired_matrix_row : agree wit_matrix wit_matrix_env (VBool true).
Proof. unfold agree. eexists. repeat split; vm_compute; reflexivity. Qed.
Example repaired_loop_rebind : agree wit_loop wit_loop_env (VBool false).
Proof. unfold agree. eexists. repeat split; vm_compute; reflexivity. Qed.

(* typed tuple arguments: a loop over a Qlist, with a condition inside, and an unpacking
   def ex2(a: Qlist[bool, 3], t: Tuple[Qint[2], Qint[2]], c: bool) -> Qint[4]:
       p, q = t
       for x in a:
           if x:
               p = p + q
           c = c ^ x
       return p if c else q *)
Definition ann_b3 : option exp := Some (ESubscript (EName "Tuple") (ETuple [EName "bool"; EName "bool"; EName "bool"])).
(* the same annotation as P_A2A.ann_qint2 *)
Definition ann_q2 : exp := ESubscript (EName "Qint") (EConst (CInt 2)).
Definition ex2_fun : fundef :=
  mkfun [("a", ann_b3); ("t", Some (ESubscript (EName "Tuple") (ETuple [ann_q2; ann_q2]))); ("c", Some (EName "bool"))]
        (Some (ESubscript (EName "Qint") (EConst (CInt 4))))
        [SAssign (TTuple [EName "p"; EName "q"]) (EName "t");
         SFor "x" (EName "a")
              [SIf (EName "x") [SAssign (TName "p") (EBinOp Add (EName "p") (EName "q"))] [];
               SAssign (TName "c") (EBinOp BitXor (EName "c") (EName "x"))] [];
         SReturn (EIfExp (EName "c") (EName "p") (EName "q"))].
Definition ex2_env : env :=
  env_of [("a", VTup [VBool true; VBool false; VBool true]); ("t", VTup [VInt 1; VInt 2]); ("c", VBool true)].

Example ex2_in_guard : a2a_guard ex2_fun = true.
Proof. vm_compute. reflexivity. Qed.
Example ex2_typed : (plen_of ex2_fun "a", plen_of ex2_fun "t", plen_of ex2_fun "c") = (Some 3%nat, Some 2%nat, None).
Proof. vm_compute. reflexivity. Qed.
Example ex2_conforms : conforms ex2_fun ex2_env.
Proof. apply conforms_check. vm_compute. reflexivity. Qed.
Example ex2_rewritten : match a2a ex2_fun with Ok b' => run no_ext b' ex2_env | _ => None end = Some (VInt 5).
Proof. vm_compute. reflexivity. Qed.
Example ex2_source : run no_ext (f_body ex2_fun) ex2_env = Some (VInt 5).
Proof. vm_compute. reflexivity. Qed.

(* the regression programs for the repairs cbb039f, 31c53a1, e979369 of /repo *)
Example repaired_const_tuple_flow : agree wit_constflow wit_constflow_env (VBool true).
Proof. unfold agree. eexists. repeat split; vm_compute; reflexivity. Qed.
Example rejected_reserved_temptup : a2a wit_temptup = Raise.
Proof. vm_compute. reflexivity. Qed.
Example rejected_reserved_iftarg : a2a wit_iftarg = Raise.
Proof. vm_compute. reflexivity. Qed.
(* a single underscore is an ordinary name *)
Example underscore_names_in_guard :
  a2a_guard (mkfun [("_a", Some (EName "bool"))] (Some (EName "bool"))
                   [SAssign (TName "_x") (EUnOp Not (EName "_a"));
                    SIf (EName "_x") [SAssign (TName "_x") (EName "_a")] [];
                    SReturn (EName "_x")]) = true.
Proof. vm_compute. reflexivity. Qed.

(* the builtin expansions over typed tuple arguments
   def ex3(a: Qlist[bool, 3], q: Qlist[Qint[2], 3]) -> Qint[4]:
       s = sum(q) + len(a)
       if all(a) or not any(a):
           s = s + max(q)
       return s - min(q) *)
Definition ex3_fun : fundef :=
  mkfun [("a", ann_b3); ("q", Some (ESubscript (EName "Tuple") (ETuple [ann_q2; ann_q2; ann_q2])))]
        (Some (ESubscript (EName "Qint") (EConst (CInt 4))))
        [SAssign (TName "s") (EBinOp Add (ECall "sum" [EName "q"]) (ECall "len" [EName "a"]));
         SIf (EBoolOp Or [ECall "all" [EName "a"]; EUnOp Not (ECall "any" [EName "a"])])
             [SAssign (TName "s") (EBinOp Add (EName "s") (ECall "max" [EName "q"]))] [];
         SReturn (EBinOp Sub (EName "s") (ECall "min" [EName "q"]))].
Definition ex3_env : env :=
  env_of [("a", VTup [VBool true; VBool false; VBool true]); ("q", VTup [VInt 1; VInt 3; VInt 2])].
Example ex3_in_guard : a2a_guard ex3_fun = true.
Proof. vm_compute. reflexivity. Qed.
Example ex3_conforms : conforms ex3_fun ex3_env.
Proof. apply conforms_check. vm_compute. reflexivity. Qed.
Example ex3_rewritten : match a2a ex3_fun with Ok b' => run no_ext b' ex3_env | _ => None end = Some (VInt 8).
Proof. vm_compute. reflexivity. Qed.
Example ex3_source : run no_ext (f_body ex3_fun) ex3_env = Some (VInt 8).
Proof. vm_compute. reflexivity. Qed.
