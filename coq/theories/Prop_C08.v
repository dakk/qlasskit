(* Prop_C08.v — "Binding parameters is specialisation", in two layers.
   C08_*: on the model of UnboundQlassf.bind over an arbitrary type of names / values with
   decidable equality (M_Bind.v): for EVERY body, any number of parameters, any keyword order;
   instantiated in C08_example so nothing is vacuous.
   C08a_*: on concrete syntax (M_BindAst.v, the language and evaluator of M_A2A.v), second half of
   the file.  M_A2A and M_BindAst use the names env, call_env again, so they are imported only there. *)
From Coq Require Import List Bool Arith String Permutation.
From QV Require Import M_Bind P_Bind.
Import ListNotations.

Theorem C08_keyword_order_irrelevant :
  forall (name value : Type) (name_eqb : name -> name -> bool),
  (forall a b, name_eqb a b = true <-> a = b) ->
  forall kw kw' (e : env name value) x,
  NoDup (map fst kw) -> Permutation kw kw' ->
  run_assigns name value name_eqb kw e x = run_assigns name value name_eqb kw' e x.
Proof.
  (* assigning kw (after nothing) amounts to assigning kw', which holds the same bindings *)
  intros name value name_eqb H kw kw' e x Hnd Hp.
  apply (run_assigns_join name value name_eqb H kw [] kw' e x).
  - exact Hnd.
  - constructor.
  - eapply Permutation_NoDup; [apply Permutation_map; exact Hp|exact Hnd].
  - intros k v. apply Permutation_in, Hp.
  - intros k v [].
  - intros k Hk. left. eapply Permutation_in; [apply Permutation_map, Permutation_sym, Hp|exact Hk].
Qed.
Print Assumptions C08_keyword_order_irrelevant.

Theorem C08_bind_is_specialisation :
  forall (name value result : Type) (name_eqb : name -> name -> bool),
  (forall a b, name_eqb a b = true <-> a = b) ->
  forall (body : env name value -> result) kw formals actuals all_formals all_actuals,
  NoDup (map fst kw) -> NoDup all_formals -> List.length all_formals = List.length all_actuals ->
  List.length formals = List.length actuals -> NoDup formals ->
  (forall k, In k (map fst kw) -> ~ In k formals) ->
  (forall k v, In (k, v) kw -> In (k, v) (combine all_formals all_actuals)) ->
  (forall k v, In (k, v) (combine formals actuals) -> In (k, v) (combine all_formals all_actuals)) ->
  (forall k, In k all_formals -> In k (map fst kw) \/ In k formals) ->
  (forall e1 e2 : env name value, (forall x, e1 x = e2 x) -> body e1 = body e2) ->
  bound_call name value result name_eqb body kw formals actuals =
  body (call_env name value name_eqb all_formals all_actuals).
Proof. intros name value result name_eqb H. exact (bind_is_specialisation name value result name_eqb H). Qed.
Print Assumptions C08_bind_is_specialisation.

(* non-vacuity: def test(c: P, a, d: P): bind(d=7, c=5) then call with a=1 *)
Example C08_example :
  let body := fun e : env string nat => (e "c"%string, e "a"%string, e "d"%string) in
  bound_call string nat _ String.eqb body [("d"%string, 7); ("c"%string, 5)] ["a"%string] [1]
  = body (call_env string nat String.eqb ["c"%string; "a"%string; "d"%string] [5; 1; 7]).
Proof. reflexivity. Qed.

(* The same property on CONCRETE syntax: M_BindAst.bind_ast is UnboundQlassf.bind on the
   language of M_A2A.v (tied to /repo on every run: the model's output is compared, by
   structural equality inside coqc, with the AST the real bind() hands to the translator),
   and `run` is the reference evaluator of that language (bool / unbounded int / tuple).
     bind_ast f kw        Ok f' | Raise; kw = the keywords in call order, values as pv
     run_injected kw rho  the environment after the injected assignments (None: a value the
                          evaluator has no meaning for, i.e. float / str / None constants)
     kw_vals kw           the keywords with the evaluator's values
     merge_actuals        the actuals of the UNBOUND function: the bound value at every
                          parameter position, the remaining actuals elsewhere *)
From Coq Require Import ZArith.
From QV Require Import M_A2A M_BindAst P_BindAst.

Theorem C08a_bound_body_runs_like_unbound :
  forall ext f kw f' rho rho',
  bind_ast f kw = Ok f' -> run_injected kw rho = Some rho' ->
  run ext (f_body f') rho = run ext (f_body f) rho'.
Proof. exact bind_ast_runs. Qed.
Print Assumptions C08a_bound_body_runs_like_unbound.

Theorem C08a_bind_is_specialisation :
  forall ext f kw f' kwv actuals all,
  bind_ast f kw = Ok f' ->
  NoDup (map fst (f_args f)) -> NoDup (map fst kw) ->
  kw_vals kw = Some kwv ->
  merge_actuals (f_args f) kwv actuals = Some all ->
  run ext (f_body f') (call_env (map fst (f_args f')) actuals empty_env)
  = run ext (f_body f) (call_env (map fst (f_args f)) all empty_env).
Proof. exact (bind_ast_specialises_on empty_env). Qed.
Print Assumptions C08a_bind_is_specialisation.

Theorem C08a_keyword_order_irrelevant :
  forall ext f kw kw' f1 rho,
  Permutation kw kw' -> NoDup (map fst kw) -> bind_ast f kw = Ok f1 ->
  exists f2, bind_ast f kw' = Ok f2 /\ f_args f2 = f_args f1 /\ f_ret f2 = f_ret f1 /\
             (forall r1, run_injected kw rho = Some r1 -> run ext (f_body f1) rho = run ext (f_body f2) rho).
Proof.
  intros ext f kw kw' f1 rho P N B.
  assert (B' : exists f2, bind_ast f kw' = Ok f2).
  { rewrite bind_ast_spec in B |- *. rewrite <- (Permutation_length P), <- (forallb_perm _ _ _ P).
    destruct (_ && _); [eauto|discriminate]. }
  destruct B' as (f2 & B2). exists f2. split; [exact B2|].
  destruct (bind_ast_ok _ _ _ B) as (_ & _ & E1), (bind_ast_ok _ _ _ B2) as (_ & _ & E2).
  split; [now rewrite E1, E2|]. split; [now rewrite E1, E2|]. intros r1 Hr.
  pose proof (run_injected_perm kw kw' P N rho) as Q. rewrite Hr in Q.
  destruct (run_injected kw' rho) as [r2|] eqn:Hr2; simpl in Q; try tauto.
  rewrite (bind_ast_runs ext f kw f1 rho r1 B Hr), (bind_ast_runs ext f kw' f2 rho r2 B2 Hr2).
  now apply run_eqenv.
Qed.
Print Assumptions C08a_keyword_order_irrelevant.

Theorem C08a_wrong_keyword_set_rejected :
  forall f kw,
  List.length kw <> List.length (parameters f) \/ (exists k, List.In k (map fst kw) /\ ~ List.In k (parameters f)) ->
  bind_ast f kw = Raise.
Proof.
  intros f kw H. destruct (bind_ast f kw) as [f'| |] eqn:B; [exfalso|reflexivity|].
  - apply bind_ast_ok in B as (L & F & _). destruct H as [H|(k & Ik & Nk)]; [contradiction|].
    apply in_map_iff in Ik as (kv & <- & Ikv). exact (Nk (F kv Ikv)).
  - rewrite bind_ast_spec in B. destruct (_ && _); discriminate.
Qed.
Print Assumptions C08a_wrong_keyword_set_rejected.

Theorem C08a_bound_function_has_no_parameter :
  forall f kw f', bind_ast f kw = Ok f' -> parameters f' = [].
Proof.
  (* a remaining argument is not parameter-annotated, so it is no parameter *)
  intros f kw f' B. apply bind_ast_ok in B as (_ & _ & ->). unfold parameters, remaining_args. cbn [f_args].
  induction (f_args f) as [|[y a] r IH]; simpl; auto.
  destruct (is_param_ann a) eqn:Pa; simpl; auto.
  destruct (is_param_sub a) eqn:Ps; simpl; auto. apply is_param_sub_ann in Ps. congruence.
Qed.
Print Assumptions C08a_bound_function_has_no_parameter.

Theorem C08a_evaluator_reads_env_pointwise :
  forall ext body r r', (forall x, r x = r' x) -> run ext body r = run ext body r'.
Proof. exact run_eqenv. Qed.
Print Assumptions C08a_evaluator_reads_env_pointwise.

(* non-vacuity: def test(c: Parameter[int], a: Qint[2], d: Parameter[List[bool]]) -> Qint[2]:
                    return a + c if d[1] else a
   bound with d=[False, True], c=3 and called with a=2, against the unbound call *)
Definition C08a_f : fundef :=
  mkfun [("c", Some (ESubscript (EName "Parameter") (EName "int")));
         ("a", Some (ESubscript (EName "Qint") (EConst (CInt 2%Z))));
         ("d", Some (ESubscript (EName "Parameter") (ESubscript (EName "List") (EName "bool"))))]%string
        (Some (ESubscript (EName "Qint") (EConst (CInt 2%Z))))%string
        [SReturn (EIfExp (ESubscript (EName "d") (EConst (CInt 1%Z)))
                         (EBinOp Add (EName "a") (EName "c")) (EName "a"))]%string.
Definition C08a_kw : list (string * pv) :=
  [("d", PSeq [PCst (CBool false); PCst (CBool true)]); ("c", PCst (CInt 3%Z))]%string.
Example C08a_example :
  exists f', bind_ast C08a_f C08a_kw = Ok f' /\
    map fst (f_args f') = ["a"%string] /\
    kw_vals C08a_kw = Some [("d"%string, VTup [VBool false; VBool true]); ("c"%string, VInt 3%Z)] /\
    merge_actuals (f_args C08a_f) [("d"%string, VTup [VBool false; VBool true]); ("c"%string, VInt 3%Z)] [VInt 2%Z]
      = Some [VInt 3%Z; VInt 2%Z; VTup [VBool false; VBool true]] /\
    run (fun _ _ => None) (f_body f') (call_env ["a"%string] [VInt 2%Z] empty_env) = Some (VInt 5%Z).
Proof. eexists. repeat split; vm_compute; reflexivity. Qed.
