(* P_Bridge.v — the typed reference evaluator of M_Texp and the untyped reference evaluator of
   M_A2A agree in the EXACT (no wrap) regime, on the fragment [M_Bridge.conv_*] converts.

   Direction: typed  ==>  untyped.  If the converted term has the typed value tv and the typed
   evaluation was exact, the ORIGINAL (string-named, untyped) term has the Python value
   [erase tv], for every interpretation [ext] of non-builtin calls (none occurs in the fragment):
   for expressions, for statement lists (the environments staying related, [env_rel]), for function
   bodies on erased arguments.
   No hypothesis on the numbering of names: [idn ns] is injective on the names it converts. *)
From Coq Require Import List Bool NArith ZArith Arith String Lia.
From QV Require Import Bits Bexp BexpTT M_Codec P_Codec Generated M_Types P_Types M_Texp P_Texp.
From QV Require M_A2A P_A2A.
From QV Require Import M_Bridge.
Import ListNotations.

Lemma zN_eqb x y : (Z.of_N x =? Z.of_N y)%Z = (x =? y)%N.
Proof. now rewrite Z.eqb_compare, N.eqb_compare, N2Z.inj_compare. Qed.
Lemma zN_ltb x y : (Z.of_N x <? Z.of_N y)%Z = (x <? y)%N.
Proof. unfold Z.ltb, N.ltb. now rewrite N2Z.inj_compare. Qed.
Lemma zN_leb x y : (Z.of_N x <=? Z.of_N y)%Z = (x <=? y)%N.
Proof. unfold Z.leb, N.leb. now rewrite N2Z.inj_compare. Qed.
Lemma zN_neg x : (Z.of_N x <? 0)%Z = false.
Proof. apply Z.ltb_ge, N2Z.is_nonneg. Qed.
Lemma zN_land x y : Z.of_N (N.land x y) = Z.land (Z.of_N x) (Z.of_N y).
Proof. destruct x, y; reflexivity. Qed.
Lemma zN_lor x y : Z.of_N (N.lor x y) = Z.lor (Z.of_N x) (Z.of_N y).
Proof. destruct x, y; reflexivity. Qed.
Lemma zN_lxor x y : Z.of_N (N.lxor x y) = Z.lxor (Z.of_N x) (Z.of_N y).
Proof. destruct x, y; reflexivity. Qed.
Lemma zN_pw k : Z.of_N (pw k) = (2 ^ Z.of_nat k)%Z.
Proof. unfold pw. now rewrite N2Z.inj_pow, nat_N_Z. Qed.

Lemma pos_inj ns : forall x y, known ns x = true -> pos x ns = pos y ns -> x = y.
Proof.
  induction ns as [|z ns IH]; intros x y Hx H; cbn [known existsb] in Hx; [discriminate|].
  cbn [pos] in H. destruct (String.eqb_spec x z) as [->|Hxz].
  - destruct (String.eqb_spec y z) as [->|]; [reflexivity|discriminate].
  - destruct (String.eqb_spec y z) as [->|]; [discriminate|].
    injection H as H. cbn [orb] in Hx. now apply IH.
Qed.
Lemma idn_inj ns x y : known ns x = true -> idn ns x = idn ns y -> x = y.
Proof. intros Hx H. injection H as H. now apply (pos_inj ns). Qed.
Lemma idn_eqb ns x y : known ns x = true -> Nat.eqb (idn ns x) (idn ns y) = String.eqb x y.
Proof.
  intros Hx. destruct (String.eqb_spec x y) as [->|Hn]; [apply Nat.eqb_refl|].
  apply Nat.eqb_neq. intros H. now apply Hn, (idn_inj ns).
Qed.
Lemma idn_ret ns x : Nat.eqb (idn ns x) ret_id = false.
Proof. reflexivity. Qed.

Lemma pw_nz w : pw w <> 0%N.
Proof. exact (p2_nz w). Qed.

Lemma bin_bool_bridge op o sh x y tv :
  conv_aop op = Some o -> eval_bin o sh (VB x) (VB y) = Some tv ->
  A.binop_val op (A.VBool x) (A.VBool y) = Some (erase tv).
Proof.
  destruct op; cbn [conv_aop]; intros [= <-]; cbn [eval_bin]; try discriminate; intros [= <-]; reflexivity.
Qed.

(* a shift is by a constant (or the typed evaluator has no value): [sh], [sk] are what
   [eval_exp] and [exact_exp] read off the right operand, see [shift_const] *)
Lemma bin_int_bridge op o sh sk wl wr x y tv :
  conv_aop op = Some o ->
  eval_bin o sh (VI wl x) (VI wr y) = Some tv ->
  fits o sk wl wr x y = true ->
  (forall k, sh = Some (Some k) -> sk = Some k /\ y = N.of_nat k) ->
  A.binop_val op (A.VInt (Z.of_N x)) (A.VInt (Z.of_N y)) = Some (erase tv).
Proof.
  destruct op; cbn [conv_aop]; intros [= <-]; cbn [eval_bin fits]; intros Hv Hf Hs;
    cbn [A.binop_val A.as_int].
  - (* Add *) injection Hv as <-. apply N.ltb_lt in Hf. cbn [erase].
    rewrite N.mod_small by exact Hf. now rewrite N2Z.inj_add.
  - (* Sub *) injection Hv as <-. apply andb_true_iff in Hf as [H1 H2].
    apply N.leb_le in H1. apply N.ltb_lt in H2. cbn [erase].
    replace (x + pw (Nat.max wl wr) - y)%N with ((x - y) + 1 * pw (Nat.max wl wr))%N by lia.
    rewrite N.mod_add by apply pw_nz. rewrite N.mod_small by exact H2. now rewrite N2Z.inj_sub.
  - (* Mult *) destruct ((0 <? wl)%nat && (0 <? wr)%nat); [|discriminate]. injection Hv as <-.
    apply N.ltb_lt in Hf. cbn [erase]. rewrite N.mod_small by exact Hf. now rewrite N2Z.inj_mul.
  - (* Mod *) destruct ((0 <? wr)%nat && is_pow2 y) eqn:E; [|discriminate]. injection Hv as <-.
    apply andb_true_iff in E as [_ E]. unfold is_pow2 in E. apply andb_true_iff in E as [E _].
    apply N.ltb_lt in E. destruct (Z.eqb_spec (Z.of_N y) 0) as [H0|_]; [lia|].
    cbn [erase]. now rewrite N2Z.inj_mod.
  - (* LShift *) destruct sh as [[k|]|]; try discriminate. destruct (Hs k eq_refl) as [-> ->].
    injection Hv as <-. apply N.ltb_lt in Hf. rewrite zN_neg. cbn [erase].
    rewrite N.mod_small by exact Hf.
    rewrite Z.shiftl_mul_pow2 by lia. now rewrite N2Z.inj_mul, zN_pw, nat_N_Z.
  - (* RShift *) destruct sh as [[k|]|]; try discriminate. destruct (Hs k eq_refl) as [_ ->].
    injection Hv as <-. rewrite zN_neg. cbn [erase].
    rewrite Z.shiftr_div_pow2 by lia. now rewrite N2Z.inj_div, zN_pw, nat_N_Z.
  - (* BitOr *) injection Hv as <-. cbn [erase]. now rewrite zN_lor.
  - (* BitXor *) injection Hv as <-. cbn [erase]. now rewrite zN_lxor.
  - (* BitAnd *) injection Hv as <-. cbn [erase]. now rewrite zN_land.
Qed.

Lemma shift_const V b w y : eval_exp V b = Some (VI w y) -> forall k,
  match b with EConst c => Some (shift_amount c) | _ => None end = Some (Some k) ->
  match b with EConst c => shift_amount c | _ => None end = Some k /\ y = N.of_nat k.
Proof.
  intros Hv k Hk. destruct b as [| | | | |c| | | | | | | |]; try discriminate Hk.
  injection Hk as Hk. split; [exact Hk|]. destruct c as [|z| | |]; try discriminate.
  cbn [eval_exp eval_const] in Hv. cbn [shift_amount] in Hk.
  destruct (z <? 0)%Z; [discriminate|]. injection Hk as <-.
  destruct (const_width (Z.to_N z)); [|discriminate]. injection Hv as _ <-. now rewrite Z_nat_N.
Qed.

(* on plain values of one type, qlasskit's == is Python's *)
Lemma value_eqb_erase : forall a b, plain a = true -> plain b = true -> type_of a = type_of b ->
  value_eqb a b = A.py_eq (erase a) (erase b).
Proof.
  induction a as [x|w x|i f x|c|l IH] using value_ind2; intros b Pa Pb Ht; try discriminate Pa;
    destruct b as [y|w' y|i' f' y|c'|m]; try discriminate Pb; try discriminate Ht.
  - reflexivity.
  - injection Ht as <-. cbn [value_eqb erase A.py_eq]. now rewrite Nat.eqb_refl, zN_eqb.
  - cbn [type_of] in Ht. injection Ht as Ht. cbn [plain] in Pa, Pb.
    revert m Pb Ht. induction IH as [|v l Hv _ IHl]; intros [|u m] Pb Ht; try discriminate Ht; [reflexivity|].
    cbn [forallb] in Pa, Pb. apply andb_true_iff in Pa as [Pa1 Pa2]. apply andb_true_iff in Pb as [Pb1 Pb2].
    cbn [map] in Ht. injection Ht as Ht1 Ht2.
    specialize (IHl Pa2 m Pb2 Ht2). cbn [value_eqb A.py_eq erase map] in IHl |- *. now rewrite (Hv u Pa1 Pb1 Ht1), IHl.
Qed.

Lemma cmp_bridge op o a b tv :
  conv_cop op = Some o -> eval_cmp o a b = Some tv -> cmp_kind a b = true ->
  A.cmp_val op (erase a) (erase b) = Some (erase tv).
Proof.
  intros Ho Hv Hk. destruct a as [x|wl x| | |l]; try discriminate; destruct b as [y|wr y| | |m]; try discriminate.
  - destruct op; cbn [conv_cop] in Ho; try discriminate; injection Ho as <-;
      cbn [eval_cmp] in Hv; try discriminate; injection Hv as <-; cbn [A.cmp_val erase A.py_eq];
      destruct x, y; reflexivity.
  - destruct op; cbn [conv_cop] in Ho; try discriminate; injection Ho as <-;
      cbn [eval_cmp num_cmp option_map] in Hv; injection Hv as <-;
      cbn [A.cmp_val erase A.py_eq A.as_int]; rewrite ?zN_eqb, ?zN_ltb, ?zN_leb; reflexivity.
  - unfold cmp_kind in Hk. apply andb_true_iff in Hk as [Pa Pb].
    unfold eval_cmp in Hv.
    destruct (ty_eq (type_of (VT l)) (type_of (VT m)) && flat_tuple_ty (type_of (VT l))) eqn:E; [|discriminate].
    apply andb_true_iff in E as [E _]. apply ty_eq_true in E.
    pose proof (value_eqb_erase (VT l) (VT m) Pa Pb E) as Heq.
    destruct op; cbn [conv_cop] in Ho; try discriminate; injection Ho as <-; try discriminate;
      injection Hv as <-; unfold A.cmp_val; rewrite <- Heq; reflexivity.
Qed.

Lemma eval_if_erase b vt vf tv :
  eval_if (VB b) vt vf = Some tv -> erase tv = erase (if b then vt else vf).
Proof.
  cbn [eval_if]. destruct (ty_eq (type_of vt) (type_of vf)); [intros [= <-]; reflexivity|].
  destruct vt; try discriminate; destruct vf; try discriminate. intros [= <-]. now destruct b.
Qed.

Lemma all_some_map_some {X} (l : list X) : A.all_some (map Some l) = Some l.
Proof. induction l as [|x l IH]; cbn [map A.all_some]; [reflexivity|]. now rewrite IH. Qed.

Lemma all_vb_erase : forall vs bs, all_vb vs = Some bs -> map erase vs = map A.VBool bs.
Proof.
  induction vs as [|v vs IH]; intros bs H; cbn [all_vb] in H.
  - now injection H as <-.
  - destruct v; try discriminate. destruct (all_vb vs) as [bs'|]; [|discriminate].
    cbn [option_map] in H. injection H as <-. cbn [map erase]. f_equal. now apply IH.
Qed.

Lemma boolop_bridge ev op : forall l bs, l <> [] -> map ev l = map Some (map A.VBool bs) ->
  A.boolop_with ev op l =
  Some (A.VBool (match op with A.And => forallb id bs | A.Or => existsb id bs end)).
Proof.
  induction l as [|x l IH]; intros bs Hne H; [congruence|].
  destruct bs as [|b bs]; [discriminate|]. cbn [map] in H. injection H as Hx Hr.
  destruct l as [|y l].
  - destruct bs; [|discriminate]. cbn [A.boolop_with]. rewrite Hx. destruct op, b; reflexivity.
  - assert (IH' := IH bs ltac:(discriminate) Hr).
    rewrite P_A2A.boolop_with_cons2, Hx, IH'. destruct op, b; reflexivity.
Qed.

Lemma index_list_nat {X} (l : list X) z : (0 <= z)%Z -> A.index_list l z = nth_error l (Z.to_nat z).
Proof.
  intros Hz. unfold A.index_list. rewrite (proj2 (Z.leb_le 0 z) Hz), (proj2 (Z.ltb_ge z 0) Hz), andb_false_r.
  destruct (Z.ltb_spec z (Z.of_nat (List.length l))) as [Hlt|Hge]; [reflexivity|].
  symmetry. apply nth_error_None. lia.
Qed.

Section Bridge.
  Variable ext : string -> list A.val -> option A.val.
  Variable ns : list string.

  (* the two environments hold the same values under the names that are converted *)
  Definition env_rel (V : venv) (rho : A.env) : Prop :=
    forall x, known ns x = true -> rho x = option_map erase (lookup V (idn ns x)).

  Definition bridge_at (V : venv) (rho : A.env) (e : A.exp) : Prop :=
    forall e' tv, conv_exp ns e = Some e' -> eval_exp V e' = Some tv -> exact_exp V e' = true ->
      A.eval ext rho e = Some (erase tv).

  Lemma list_bridge V rho l : Forall (bridge_at V rho) l -> forall l' vs,
    conv_list ns l = Some l' -> eval_list V l' = Some vs -> forallb (exact_exp V) l' = true ->
    map (A.eval ext rho) l = map Some (map erase vs).
  Proof.
    induction 1 as [|e l He _ IH]; intros l' vs Hc Hv Hx.
    - cbn [conv_list] in Hc. injection Hc as <-. cbn [eval_list] in Hv. injection Hv as <-. reflexivity.
    - cbn [conv_list] in Hc. apply some2 in Hc as (a & b & Ea & Eb & ->).
      cbn [eval_list] in Hv. apply some2 in Hv as (va & vb & Eva & Evb & ->).
      cbn [forallb] in Hx. apply andb_true_iff in Hx as [Hx1 Hx2].
      cbn [map]. rewrite (He a va Ea Eva Hx1), (IH b vb Eb Evb Hx2). reflexivity.
  Qed.

  (* conv_sub collects the path of x[i0]...[ik] from the OUTERMOST subscript inwards, so the induction
     is on e with acc growing; u is the value of the sub-expression e, from which acc leads to tv *)
  Lemma conv_sub_bridge V rho : env_rel V rho -> forall e acc x p,
    conv_sub ns e acc = Some (x, p) -> forall v0 tv,
    lookup V x = Some v0 -> sub_tup v0 p = true -> sub_val v0 p = Some tv ->
    exists u, A.eval ext rho e = Some (erase u) /\ sub_tup u acc = true /\ sub_val u acc = Some tv.
  Proof.
    intros Hr. induction e; intros acc x0 p H v0 tv Hl Ht Hs; cbn [conv_sub] in H; try discriminate.
    - destruct (known ns x) eqn:Ek; [|discriminate]. injection H as <- <-. exists v0.
      cbn [A.eval]. rewrite (Hr x Ek), Hl. auto.
    - destruct e2; try discriminate. destruct c; try discriminate.
      destruct (z <? 0)%Z eqn:Ez; [discriminate|]. apply Z.ltb_ge in Ez.
      destruct (IHe1 _ _ _ H v0 tv Hl Ht Hs) as (u & He & Hu & Hv). cbn [sub_tup sub_val] in Hu, Hv.
      destruct u as [| | | |l]; try discriminate.
      destruct (nth_error l (Z.to_nat z)) as [w|] eqn:En; [|discriminate]. exists w. split; [|auto].
      cbn [A.eval]. rewrite He. cbn [A.val_of_cst erase A.subscript_val A.as_int].
      rewrite index_list_nat by exact Ez. now apply map_nth_error.
  Qed.

  Theorem bridge_exp V rho : env_rel V rho -> forall e, bridge_at V rho e.
  Proof.
    intros Hr.
    induction e as [x|c|e IH|op l IH|op a b IHa IHb|op a IHa|op a b IHa IHb|c t f IHc IHt IHf
                   |l IH|l IH|v s IHv IHs|g args IH] using P_A2A.exp_ind2;
      intros e' tv Hc Hv Hx.
    - (* Name *)
      cbn [conv_exp] in Hc. destruct (known ns x) eqn:Ek; [|discriminate]. injection Hc as <-.
      cbn [eval_exp] in Hv. cbn [A.eval]. rewrite (Hr x Ek), Hv. reflexivity.
    - (* Constant *)
      cbn [conv_exp] in Hc. apply option_map_some in Hc as (c' & Ec & ->).
      destruct c as [b|z|m k|s|]; try discriminate; injection Ec as <-; cbn [eval_exp eval_const] in Hv.
      + injection Hv as <-. reflexivity.
      + destruct (z <? 0)%Z eqn:Ez; [discriminate|]. apply option_map_some in Hv as (w & _ & ->).
        cbn [A.eval A.val_of_cst erase]. rewrite Z2N.id; [reflexivity|]. now apply Z.ltb_ge.
    - discriminate Hc.
    - (* BoolOp *)
      change (conv_exp ns (A.EBoolOp op l)) with (option_map (EBoolOp (conv_bop op)) (conv_list ns l)) in Hc.
      apply option_map_some in Hc as (l' & El & ->).
      rewrite eval_exp_boolop in Hv.
      bind_inv Hv as vs Evs. cbn [exact_exp] in Hx.
      pose proof (list_bridge V rho l IH l' vs El Evs Hx) as Hm.
      apply eval_boolop_some in Hv as (Hne & bs & Eb & ->).
      rewrite (all_vb_erase _ _ Eb) in Hm. cbn [A.eval].
      rewrite (boolop_bridge _ op l bs); [destruct op; reflexivity| |exact Hm].
      intros ->. cbn [conv_list] in El. injection El as <-. injection Evs as <-. now apply Hne.
    - (* BinOp *)
      cbn [conv_exp] in Hc. destruct (shift_ok op b); [|discriminate].
      apply some3 in Hc as (o & a' & b' & Eo & Ea & Eb & ->).
      cbn [eval_exp] in Hv. bind_inv Hv as va Eva. bind_inv Hv as vb Evb.
      cbn [exact_exp] in Hx. rewrite Eva, Evb in Hx.
      apply andb_true_iff in Hx as [Hx Hk]. apply andb_true_iff in Hx as [Hxa Hxb].
      cbn [A.eval]. rewrite (IHa a' va Ea Eva Hxa), (IHb b' vb Eb Evb Hxb).
      destruct va as [x|wl x| | |]; try discriminate Hk; destruct vb as [y|wr y| | |]; try discriminate Hk.
      + exact (bin_bool_bridge op o _ x y tv Eo Hv).
      + exact (bin_int_bridge op o _ _ wl wr x y tv Eo Hv Hk (shift_const V b' wr y Evb)).
    - (* UnaryOp *)
      cbn [conv_exp] in Hc. destruct op; try discriminate. apply option_map_some in Hc as (a' & Ea & ->).
      cbn [eval_exp] in Hv. bind_inv Hv as va Eva.
      destruct va; try discriminate. injection Hv as <-.
      cbn [exact_exp] in Hx. cbn [A.eval]. rewrite (IHa a' _ Ea Eva Hx). reflexivity.
    - (* Compare: opens as BinOp *)
      cbn [conv_exp] in Hc. apply some3 in Hc as (o & a' & b' & Eo & Ea & Eb & ->).
      cbn [eval_exp] in Hv. bind_inv Hv as va Eva. bind_inv Hv as vb Evb.
      cbn [exact_exp] in Hx. rewrite Eva, Evb in Hx.
      apply andb_true_iff in Hx as [Hx Hk]. apply andb_true_iff in Hx as [Hxa Hxb].
      cbn [A.eval]. rewrite (IHa a' va Ea Eva Hxa), (IHb b' vb Eb Evb Hxb).
      exact (cmp_bridge op o va vb tv Eo Hv Hk).
    - (* IfExp *)
      cbn [conv_exp] in Hc. apply some3 in Hc as (c' & t' & f' & Ec & Et & Ef & ->).
      cbn [eval_exp] in Hv. bind_inv Hv as vc Evc.
      bind_inv Hv as vt Evt. bind_inv Hv as vf Evf.
      cbn [exact_exp] in Hx. rewrite Evc in Hx. apply andb_true_iff in Hx as [Hxc Hb].
      destruct vc as [bb| | | |]; try discriminate Hb.
      cbn [A.eval]. rewrite (IHc c' _ Ec Evc Hxc). cbn [erase A.truthy].
      rewrite (eval_if_erase _ _ _ _ Hv).
      destruct bb; [exact (IHt t' vt Et Evt Hb)|exact (IHf f' vf Ef Evf Hb)].
    - (* Tuple *)
      change (conv_exp ns (A.ETuple l)) with (option_map ETuple (conv_list ns l)) in Hc.
      apply option_map_some in Hc as (l' & El & ->).
      rewrite eval_exp_tuple in Hv.
      apply option_map_some in Hv as (vs & Evs & ->). cbn [exact_exp] in Hx.
      cbn [A.eval]. rewrite (list_bridge V rho l IH l' vs El Evs Hx), all_some_map_some. reflexivity.
    - discriminate Hc.
    - (* Subscript *)
      cbn [conv_exp] in Hc.
      destruct (conv_sub ns (A.ESubscript v s) []) as [[x p]|] eqn:Es; [|discriminate]. injection Hc as <-.
      cbn [exact_exp] in Hx. cbn [eval_exp] in Hv. destruct p; [discriminate|].
      bind_inv Hv as v0 El. rewrite El in Hx.
      destruct (conv_sub_bridge V rho Hr _ _ _ _ Es v0 tv El Hx Hv) as (u & He & _ & [= ->]). exact He.
    - (* Call: int(a) *)
      cbn [conv_exp] in Hc. destruct (String.eqb_spec g "int") as [->|]; [|discriminate].
      destruct args as [|a [|b r]]; try discriminate. apply option_map_some in Hc as (a' & Ea & ->).
      cbn [eval_exp] in Hv. bind_inv Hv as va Eva.
      cbn [exact_exp] in Hx. rewrite Eva in Hx. apply andb_true_iff in Hx as [Hxa Hk].
      destruct va as [|w n| | |]; try discriminate Hk. injection Hv as <-.
      cbn [A.eval map A.all_some]. rewrite (Forall_inv IH a' _ Ea Eva Hxa). reflexivity.
  Qed.

  Lemma coerce_exact rt v v' :
    coerce_ret rt v = Some v' -> ret_exact rt v = true -> plain v = true ->
    erase v' = erase v /\ plain v' = true.
  Proof.
    intros H He Hp.
    destruct (coerce_ret_cases _ _ _ H) as [[_ ->]|(w & n & r & -> & -> & [[_ ->]|[_ ->]])]; [auto..|].
    cbn [ret_exact] in He. apply N.ltb_lt in He. cbn [erase plain]. now rewrite N.mod_small.
  Qed.

  Lemma env_rel_bind V rho x v :
    env_rel V rho -> env_rel (bind V (idn ns x) v) (A.upd rho x (erase v)).
  Proof.
    intros Hr y Hy. unfold A.upd. rewrite lookup_bind, (idn_eqb ns y x Hy), (String.eqb_sym x y).
    destruct (String.eqb y x); [reflexivity|exact (Hr y Hy)].
  Qed.

  Lemma conv_not_call e e' : conv_exp ns e = Some e' -> A.is_call "print" e = None.
  Proof.
    destruct e; intros H; try reflexivity. cbn [conv_exp] in H.
    destruct (String.eqb f "int") eqn:Eg; [|discriminate]. apply String.eqb_eq in Eg. now subst f.
  Qed.

  (* ONE statement: a return yields the erased value of _ret; any other statement returns nothing
     and keeps the environments related *)
  Lemma bridge_stmt rt s s' V rho V1 : env_rel V rho -> lookup V ret_id = None ->
    conv_stmt ns s = Some s' -> eval_stmt V rt s' = Some V1 -> exact_stmt V rt s' = true ->
    match s' with
    | SReturn _ => exists tv, lookup V1 ret_id = Some tv /\ plain tv = true /\
                              A.exec ext s rho = Some (rho, Some (erase tv))
    | _ => exists rho1, A.exec ext s rho = Some (rho1, None) /\ env_rel V1 rho1 /\ lookup V1 ret_id = None
    end.
  Proof.
    intros Hr H0 Es Ev1 Hxs.
    destruct s as [[x|tl] e|x op e|c bt bo|x it bt bo|e|[e|]]; cbn [conv_stmt] in Es; try discriminate.
    - (* Assign *)
      destruct (known ns x) eqn:Ek; [|discriminate]. apply option_map_some in Es as (e' & Ee & ->).
      apply option_map_some in Ev1 as (v & Eve & ->).
      exists (A.upd rho x (erase v)). cbn [A.exec]. rewrite (bridge_exp V rho Hr e e' v Ee Eve Hxs).
      split; [reflexivity|]. split; [now apply env_rel_bind|]. rewrite lookup_bind. exact H0.
    - (* Return *)
      apply option_map_some in Es as (e' & Ee & ->).
      bind_inv Ev1 as v Eve. bind_inv Ev1 as v' Ecr.
      rewrite H0 in Ev1. injection Ev1 as <-.
      cbn [exact_stmt] in Hxs. rewrite Eve in Hxs.
      apply andb_true_iff in Hxs as [Hxe Hxs]. apply andb_true_iff in Hxs as [Hre Hpl].
      destruct (coerce_exact _ _ _ Ecr Hre Hpl) as [Her Hpl'].
      exists v'. split; [rewrite lookup_bind; reflexivity|]. split; [exact Hpl'|].
      cbn [A.exec]. now rewrite (bridge_exp V rho Hr e e' v Ee Eve Hxe), Her.
    - (* Expr *)
      apply option_map_some in Es as (e' & Ee & ->). apply option_map_some in Ev1 as (v & Eve & ->).
      exists rho. cbn [A.exec]. rewrite (conv_not_call e e' Ee), (bridge_exp V rho Hr e e' v Ee Eve Hxs). auto.
    - injection Es as <-. injection Ev1 as <-. exists rho. auto.
  Qed.

  Theorem bridge_body rt : forall b V rho body V',
    env_rel V rho -> lookup V ret_id = None ->
    conv_body ns b = Some body -> ret_last body = true ->
    eval_body V rt body = Some V' -> exact_body V rt body = true ->
    exists tv rho', lookup V' ret_id = Some tv /\ plain tv = true /\
                    A.exec_list ext b rho = Some (rho', Some (erase tv)).
  Proof.
    induction b as [|s r IH]; intros V rho body V' Hr H0 Hc Hl Hv Hx.
    - cbn [conv_body] in Hc. injection Hc as <-. discriminate Hl.
    - cbn [conv_body] in Hc. apply some2 in Hc as (s' & body_r & Es & Er & ->).
      cbn [eval_body] in Hv. bind_inv Hv as V1 Ev1.
      cbn [exact_body] in Hx. rewrite Ev1 in Hx. apply andb_true_iff in Hx as [Hxs Hxr].
      rewrite P_A2A.exec_list_cons.
      pose proof (bridge_stmt rt s s' V rho V1 Hr H0 Es Ev1 Hxs) as B.
      destruct s' as [x e|e|e|]; cbn [ret_last] in Hl; try discriminate Ev1.
      1, 3: destruct B as (rho1 & -> & Hr1 & H1); exact (IH V1 rho1 body_r V' Hr1 H1 Er Hl Hv Hxr).
      (* the return is the last statement *)
      destruct body_r; [|discriminate]. injection Hv as <-. destruct B as (tv & E1 & E2 & ->). exists tv, rho. auto.
  Qed.

  Lemma args_rel : forall fargs args vs, conv_args ns fargs = Some args ->
    env_rel (combine (map fst args) vs) (arg_rho (map fst fargs) vs) /\
    lookup (combine (map fst args) vs) ret_id = None.
  Proof.
    induction fargs as [|[x [t|]] r IH]; intros args vs H; cbn [conv_args] in H; try discriminate.
    - injection H as <-. split; [intros y _; reflexivity|reflexivity].
    - destruct (known ns x) eqn:Ek; [|discriminate]. apply some2 in H as (t' & r' & _ & Er & ->).
      destruct vs as [|v vs]; [split; [intros y _; reflexivity|reflexivity]|].
      destruct (IH r' vs Er) as [H1 H2]. split.
      + intros y Hy. unfold arg_rho. cbn [map fst combine A.env_of lookup]. unfold A.upd.
        rewrite (idn_eqb ns x y Ek). destruct (String.eqb x y); [reflexivity|exact (H1 y Hy)].
      + cbn [map fst combine lookup]. exact H2.
  Qed.

  Theorem bridge_fun fargs args rt b body vs tv :
    conv_args ns fargs = Some args -> conv_body ns b = Some body -> ret_last body = true ->
    eval_fun args rt body vs = Some tv -> exact_fun args rt body vs = true ->
    A.run ext b (arg_rho (map fst fargs) vs) = Some (erase tv) /\ plain tv = true.
  Proof.
    intros Ha Hb Hl Hv Hx. destruct (args_rel fargs args vs Ha) as [Hr H0].
    unfold eval_fun in Hv.
    destruct (negb (Nat.eqb (List.length args) (List.length vs))); [discriminate|].
    destruct (negb (forallb _ _)); [discriminate|].
    destruct (eval_body (combine (map fst args) vs) rt body) as [V'|] eqn:Eb; [|discriminate].
    cbn [obind] in Hv.
    destruct (bridge_body rt b _ _ body V' Hr H0 Hb Hl Eb Hx) as (tv' & rho' & H1 & H2 & H3).
    rewrite Hv in H1. injection H1 as <-. split; [|exact H2].
    unfold A.run. now rewrite H3.
  Qed.
End Bridge.

(* converted bodies never assign the reserved name *)
Lemma conv_stmt_wf ns s s' : conv_stmt ns s = Some s' ->
  match s' with SAssign x _ => negb (Nat.eqb x ret_id) | _ => true end = true.
Proof.
  destruct s as [[x|tl] e|x op e|c0 bt bo|x it bt bo|e|[e|]]; cbn [conv_stmt]; try discriminate.
  - destruct (known ns x); [|discriminate]. destruct (conv_exp ns e); [|discriminate]. now intros [= <-].
  - destruct (conv_exp ns e); [|discriminate]. now intros [= <-].
  - destruct (conv_exp ns e); [|discriminate]. now intros [= <-].
  - now intros [= <-].
Qed.

Lemma conv_body_wf ns : forall b body, conv_body ns b = Some body -> wf_body body = true.
Proof.
  induction b as [|s r IH]; intros body H; cbn [conv_body] in H.
  - now injection H as <-.
  - apply some2 in H as (s' & c & Es & Ec & ->).
    apply andb_true_iff. split; [exact (conv_stmt_wf ns s s' Es)|exact (IH c Ec)].
Qed.
