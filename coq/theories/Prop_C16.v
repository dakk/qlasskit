(* Prop_C16.v — "Deutsch-Jozsa, Bernstein-Vazirani, Simon circuits meet textbook
   guarantees".

   For EVERY n, every black-box gate list c and every expression list ds: if the
   verified checker c06_check accepts c as a clean xor-oracle for the predicate
   f x = run_defs (asg x) ds ret (decided per program by the harness), then the
   gate list M_Algo builds around c (compared EXACTLY with the implementation's
   gate list on every case) has the textbook amplitudes under the reference
   amplitude semantics run_ref of Amp.v.  States are integer amplitudes psi with
   a counter k: the amplitude of basis state i is psi i / sqrt(2)^k, so a
   probability is (psi i)^2 / 2^k.

   xonly nq c = every gate of c is an X / CX / CCX / MCX / identity on distinct
   qubits below nq (evaluated by the harness together with c06_check). *)
From Coq Require Import List Bool NArith ZArith Arith.
From QV Require Import Bexp BexpTT Circ Compiled Amp WH M_Algo P_Algo.
Import ListNotations.
Local Open Scope N_scope.

(* the evaluator the harness runs is a verified evaluator (this and the next theorem are stated
   in Prop_C15 as well: each property names its own) *)
Theorem C16_amp_evaluator_correct : forall nq c,
  match run_amp nq c, run_ref nq c (delta0, 0%nat) with
  | Some (l, k), Some (psi, k') => k = k' /\ forall i, amp_of l i = psi i
  | None, None => True
  | _, _ => False
  end.
Proof. exact amp_run_spec. Qed.
Print Assumptions C16_amp_evaluator_correct.

(* the marginal numerators read by the harness are sums of squared reference amplitudes *)
Theorem C16_marginal_is_reference : forall nq c l k psi mask y,
  run_amp nq c = Some (l, k) -> run_ref nq c (delta0, 0%nat) = Some (psi, k) ->
  strictly_sorted l = true -> keys_below nq l = true ->
  amp_of (marginal mask l) y =
  sumN nq (fun i => if N.eqb y (N.land i mask) then (psi i * psi i)%Z else 0%Z).
Proof. exact marginal_is_reference. Qed.
Print Assumptions C16_marginal_is_reference.

(* the H gates of the circuit, one qubit after the other, are the layer *)
Theorem C16_hadamard_gates_are_the_layer : forall nq n psi k, (n <= nq)%nat ->
  exists psi', run_ref nq (h_layer n) (psi, k) = Some (psi', (k + n)%nat) /\
    forall i, psi' i = sumN n (fun x => sgn (dotb n x i) (psi (setlow n i x))).
Proof. intros nq n psi k H. exists (hlayer n psi). split; [now apply run_ref_hlayer|apply hlayer_WH]. Qed.
Print Assumptions C16_hadamard_gates_are_the_layer.

Theorem C16_WH_character : forall n s y, s < pow2n n -> y < pow2n n ->
  WH n (fun x => sgn (dotb n s x) 1%Z) y = if N.eqb y s then pow2z n else 0%Z.
Proof. exact WH_char. Qed.
Print Assumptions C16_WH_character.

Theorem C16_WH_at_zero : forall n psi, WH n psi 0 = sumN n psi.
Proof. exact WH_zero_0. Qed.
Print Assumptions C16_WH_at_zero.

(* the black box: what an accepted oracle does to amplitudes *)
Theorem C16_oracle_acts_as_xor_map : forall n nq c ds ret out,
  (n <= out < nq)%nat -> xonly nq c = true -> c06_check n nq c ds ret out = Some 0 ->
  forall psi k,
  exists psi', run_ref nq c (psi, k) = Some (psi', k) /\
    (forall i, cleanb n out i = true -> psi' i = psi (omap n ds ret out i)) /\
    (forall i, cleanb n out i = false -> exists j, cleanb n out j = false /\ psi' i = psi j).
Proof. intros n nq c ds ret out Ho Hx Hc. exact (oracle_action n nq c ds ret out Ho Hx (c06_checked _ _ _ _ _ _ Ho Hc)). Qed.
Print Assumptions C16_oracle_acts_as_xor_map.

(* amplitude of every basis state: zero unless all scratch qubits are zero, else
   (-1)^(output bit) * sum_x (-1)^(x.y + f x) with y the search bits; k = 2n+1 *)
Theorem C16_deutsch_jozsa_amplitudes : forall n nq c ds ret out,
  (n <= out < nq)%nat -> xonly nq c = true -> c06_check n nq c ds ret out = Some 0 ->
  exists psi, run_ref nq (dj_circuit n out c) (delta0, 0%nat) = Some (psi, (2 * n + 1)%nat) /\
    forall i, psi i = if cleanb n out i
                      then sgn (N.testbit i (N.of_nat out))
                             (sumN n (fun x => sgn (xorb (dotb n x i) (run_defs (asg x) ds ret)) 1%Z))
                      else 0%Z.
Proof. intros n nq c ds ret out Ho Hx Hc. exact (dj_amplitudes n nq c ds ret out Ho Hx (c06_checked _ _ _ _ _ _ Ho Hc)). Qed.
Print Assumptions C16_deutsch_jozsa_amplitudes.

(* the all-zero search outcome carries  +- sum_x (-1)^(f x) *)
Theorem C16_deutsch_jozsa_zero_outcome : forall n nq c ds ret out,
  (n <= out < nq)%nat -> xonly nq c = true -> c06_check n nq c ds ret out = Some 0 ->
  exists psi, run_ref nq (dj_circuit n out c) (delta0, 0%nat) = Some (psi, (2 * n + 1)%nat) /\
    psi 0 = sumN n (fun x => sgn (run_defs (asg x) ds ret) 1%Z) /\
    psi (bitm (N.of_nat out)) = (- sumN n (fun x => sgn (run_defs (asg x) ds ret) 1%Z))%Z /\
    (forall i, lowz n i = true -> i <> 0 -> i <> bitm (N.of_nat out) -> psi i = 0%Z).
Proof.
  intros n nq c ds ret out Ho Hx Hc.
  destruct (C16_deutsch_jozsa_amplitudes n nq c ds ret out Ho Hx Hc) as (psi & Hr & Hp).
  destruct (dj_zero_outcome n ds ret out (proj1 Ho)) as (A0 & A1 & A2).
  exists psi. rewrite !Hp. repeat split; try assumption. intros i Hl H0 H1. rewrite Hp. now apply A2.
Qed.
Print Assumptions C16_deutsch_jozsa_zero_outcome.

(* constant f: the two basis states with all-zero search bits carry the whole probability:
   numerators add up to the denominator 2^(2n+1) *)
Theorem C16_deutsch_jozsa_constant : forall n nq c ds ret out b,
  (n <= out < nq)%nat -> xonly nq c = true -> c06_check n nq c ds ret out = Some 0 ->
  (forall x, x < pow2n n -> run_defs (asg x) ds ret = b) ->
  exists psi, run_ref nq (dj_circuit n out c) (delta0, 0%nat) = Some (psi, (2 * n + 1)%nat) /\
    (psi 0%N * psi 0%N + psi (bitm (N.of_nat out)) * psi (bitm (N.of_nat out)))%Z = pow2z (2 * n + 1).
Proof.
  intros n nq c ds ret out b Ho Hx Hc Hb.
  destruct (C16_deutsch_jozsa_amplitudes n nq c ds ret out Ho Hx Hc) as (psi & Hr & Hp).
  exists psi. split; [exact Hr|]. rewrite !Hp. exact (dj_constant n ds ret out (proj1 Ho) b Hb).
Qed.
Print Assumptions C16_deutsch_jozsa_constant.

(* balanced f (2 * #{x : f x} = 2^n): every basis state with all-zero search bits has amplitude 0 *)
Theorem C16_deutsch_jozsa_balanced : forall n nq c ds ret out,
  (n <= out < nq)%nat -> xonly nq c = true -> c06_check n nq c ds ret out = Some 0 ->
  (2 * sumN n (fun x => if run_defs (asg x) ds ret then 1 else 0) = pow2z n)%Z ->
  exists psi, run_ref nq (dj_circuit n out c) (delta0, 0%nat) = Some (psi, (2 * n + 1)%nat) /\
    forall i, lowz n i = true -> psi i = 0%Z.
Proof.
  intros n nq c ds ret out Ho Hx Hc Hb.
  destruct (C16_deutsch_jozsa_amplitudes n nq c ds ret out Ho Hx Hc) as (psi & Hr & Hp).
  exists psi. split; [exact Hr|]. intros i Hl. rewrite Hp. exact (dj_balanced n ds ret out (proj1 Ho) Hb i Hl).
Qed.
Print Assumptions C16_deutsch_jozsa_balanced.

(* the expression secret_oracle(n, s) writes denotes x |-> s.x *)
Theorem C16_secret_oracle_denotes_dot : forall n s x, beval (asg x) (secret_expr n s) = dotb n s x.
Proof. exact secret_expr_spec. Qed.
Print Assumptions C16_secret_oracle_denotes_dot.

(* all the amplitude sits on (search register = s, output qubit 0/1, scratch 0):
   the outcome s has probability 1 *)
Theorem C16_bernstein_vazirani_certain : forall n nq c rs out s,
  (n <= out < nq)%nat -> s < pow2n n -> xonly nq c = true ->
  c06_check n nq c [(rs, secret_expr n s)] rs out = Some 0 ->
  exists psi, run_ref nq (bv_circuit n out c) (delta0, 0%nat) = Some (psi, (2 * n + 1)%nat) /\
    (psi s * psi s + psi (N.lor s (bitm (N.of_nat out))) * psi (N.lor s (bitm (N.of_nat out))))%Z = pow2z (2 * n + 1) /\
    forall i, lowpart n i <> s -> psi i = 0%Z.
Proof.
  intros n nq c rs out s Ho Hs Hx Hc.
  destruct (bv_amplitudes n nq c _ rs out Ho Hx (c06_checked _ _ _ _ _ _ Ho Hc)) as (psi & Hr & Hp).
  destruct (bv_certain n rs out s (proj1 Ho) Hs) as (A1 & A2).
  exists psi. rewrite !Hp. repeat split; try assumption. intros i Hne. rewrite Hp. now apply A2.
Qed.
Print Assumptions C16_bernstein_vazirani_certain.

(* black box: an X-family circuit that preserves its input register (the C03 decision);
   F x = what it leaves on the other qubits from |x>|0...0> *)
Theorem C16_simon_amplitudes : forall n nq c outs,
  (n <= nq)%nat -> xonly nq c = true -> c03_check n nq c outs = Some 0 ->
  exists psi, run_ref nq (simon_circuit n c) (delta0, 0%nat) = Some (psi, (2 * n)%nat) /\
    forall i, psi i = sumN n (fun x => sgn (dotb n x i)
                                         (if N.eqb (simonF n nq c x) (hi n i) then 1%Z else 0%Z)).
Proof. intros n nq c outs Hn Hx Hc. exact (simon_amplitudes n nq c Hn Hx (simon_inputs_checked n nq c outs Hx Hc)). Qed.
Print Assumptions C16_simon_amplitudes.

(* F has period s: every outcome of non-zero amplitude satisfies y.s = 0 *)
Theorem C16_simon_orthogonal : forall n nq c outs s,
  (n <= nq)%nat -> xonly nq c = true -> c03_check n nq c outs = Some 0 -> s < pow2n n ->
  (forall x, x < pow2n n -> simonF n nq c (N.lxor x s) = simonF n nq c x) ->
  exists psi, run_ref nq (simon_circuit n c) (delta0, 0%nat) = Some (psi, (2 * n)%nat) /\
    forall i, psi i <> 0%Z -> dotb n s i = false.
Proof.
  intros n nq c outs s Hn Hx Hc Hs Hper.
  destruct (C16_simon_amplitudes n nq c outs Hn Hx Hc) as (psi & Hr & Hp).
  exists psi. split; [exact Hr|]. intros i. rewrite Hp. exact (simon_orthogonal n nq c s Hs Hper i).
Qed.
Print Assumptions C16_simon_orthogonal.

(* F two-to-one with period s: for outcomes orthogonal to s the squared amplitude of a basis
   state depends only on the non-search part of the register, so all such outcomes are
   equally likely (their probabilities are equal term by term) *)
Theorem C16_simon_uniform : forall n nq c outs s,
  (n <= nq)%nat -> xonly nq c = true -> c03_check n nq c outs = Some 0 -> s < pow2n n -> s <> 0 ->
  (forall x x', x < pow2n n -> x' < pow2n n ->
     (simonF n nq c x = simonF n nq c x' <-> x' = x \/ x' = N.lxor x s)) ->
  exists psi, run_ref nq (simon_circuit n c) (delta0, 0%nat) = Some (psi, (2 * n)%nat) /\
    forall i i', dotb n s i = false -> dotb n s i' = false -> hi n i = hi n i' ->
      (psi i * psi i = psi i' * psi i')%Z.
Proof.
  intros n nq c outs s Hn Hx Hc Hs Hs0 H21.
  destruct (C16_simon_amplitudes n nq c outs Hn Hx Hc) as (psi & Hr & Hp).
  exists psi. split; [exact Hr|]. intros i i'. rewrite !Hp. exact (simon_uniform n nq c s Hs H21 i i').
Qed.
Print Assumptions C16_simon_uniform.

(* the three decisions the harness makes per black box (C02 + C03 accepted, the function
   denoted by the return expressions two-to-one with period s) give Simon's guarantee *)
Theorem C16_simon_guarantee : forall n nq c ds rets s,
  (n <= nq)%nat -> xonly nq c = true ->
  c02_check n nq c ds rets = Some 0 -> c03_check n nq c (map snd rets) = Some 0 ->
  (forall sy q, In (sy, q) rets -> (n <= q)%nat) ->
  s < pow2n n -> s <> 0 ->
  (forall x x', x < pow2n n -> x' < pow2n n ->
     ((forall sy q, In (sy, q) rets -> run_defs (asg x) ds sy = run_defs (asg x') ds sy)
      <-> x' = x \/ x' = N.lxor x s)) ->
  exists psi, run_ref nq (simon_circuit n c) (delta0, 0%nat) = Some (psi, (2 * n)%nat) /\
    (forall i, psi i <> 0%Z -> dotb n s i = false) /\
    (forall i i', dotb n s i = false -> dotb n s i' = false -> hi n i = hi n i' ->
       (psi i * psi i = psi i' * psi i')%Z).
Proof.
  intros n nq c ds rets s Hn Hx H2 H3 Hq Hs Hs0 H21.
  pose proof (simon_inputs_checked n nq c (map snd rets) Hx H3) as Hin.
  pose proof (simonF_values n nq c ds rets Hx (c02_checked _ _ _ _ _ H2) (c03_checked _ _ _ _ H3) Hq) as HF.
  assert (H21F : forall x x', inr n x -> inr n x' ->
            (simonF n nq c x = simonF n nq c x' <-> x' = x \/ x' = N.lxor x s)).
  { intros x x' Hxx Hxx'. rewrite (HF x x' Hxx Hxx'). now apply H21. }
  assert (Hper : forall x, inr n x -> simonF n nq c (N.lxor x s) = simonF n nq c x).
  { intros x Hxx. symmetry. apply (H21F x (N.lxor x s) Hxx); [now apply inr_lxor|now right]. }
  destruct (C16_simon_amplitudes n nq c _ Hn Hx H3) as (psi & Hr & Hp).
  exists psi. split; [exact Hr|]. split; intros i; [|intros i']; rewrite !Hp.
  - exact (simon_orthogonal n nq c s Hs Hper i).
  - exact (simon_uniform n nq c s Hs H21F i i').
Qed.
Print Assumptions C16_simon_guarantee.

(* the hypotheses are satisfiable; the evaluator computes *)
(* f x = x on one bit (balanced): oracle CX 0 -> 1 *)
Example C16_ex_oracle :
  xonly 2 [mkg KCX [0; 1]%nat None] = true /\
  c06_check 1 2 [mkg KCX [0; 1]%nat None] [(2%nat, BSym 0)] 2 1 = Some 0.
Proof. split; vm_compute; reflexivity. Qed.
(* Deutsch-Jozsa on it: the two surviving basis states have search bit 1 (indices 1 and 3) *)
Example C16_ex_dj_balanced :
  run_amp 2 (dj_circuit 1 1 [mkg KCX [0; 1]%nat None]) = Some ([(1, 2%Z); (3, (-2)%Z)], 3%nat).
Proof. vm_compute. reflexivity. Qed.
(* constant f = 0 on one bit: empty oracle; everything on search bit 0 *)
Example C16_ex_dj_constant :
  run_amp 2 (dj_circuit 1 1 []) = Some ([(0, 2%Z); (2, (-2)%Z)], 3%nat).
Proof. vm_compute. reflexivity. Qed.
(* Bernstein-Vazirani, s = 5 on 3 bits *)
Example C16_ex_bv :
  c06_check 3 4 [mkg KCX [0; 3]%nat None; mkg KCX [2; 3]%nat None] [(4%nat, secret_expr 3 5)] 4 3 = Some 0 /\
  run_amp 4 (bv_circuit 3 3 [mkg KCX [0; 3]%nat None; mkg KCX [2; 3]%nat None]) = Some ([(5, 8%Z); (13, (-8)%Z)], 7%nat).
Proof. split; vm_compute; reflexivity. Qed.
(* Simon, f(x) = x >> 1 on 2 bits (period 1): outcomes 0 and 2 only, equally likely *)
Example C16_ex_simon :
  c03_check 2 4 [mkg KCX [1; 2]%nat None] [2; 3]%nat = Some 0 /\
  marginal 3 (match run_amp 4 (simon_circuit 2 [mkg KCX [1; 2]%nat None]) with Some (l, _) => l | None => [] end)
  = [(0, 8%Z); (2, 8%Z)].
Proof. split; vm_compute; reflexivity. Qed.
