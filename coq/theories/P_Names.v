(* P_Names.v — the ancilla name chosen by add_ancilla is never the name of a program symbol.
   fresh_go returns the first index from k on that is not taken.  It runs out of fuel only if
   fuel + 1 consecutive indices are all taken, which |taken| <= fuel forbids (pigeonhole). *)
From Coq Require Import List Arith Bool Lia.
From QV Require Import M_Names.
Import ListNotations.

Lemma memb_In k l : memb k l = true <-> In k l.
Proof.
  unfold memb. rewrite existsb_exists. split.
  - intros [x [Hx He]]. apply Nat.eqb_eq in He. subst. exact Hx.
  - intros H. exists k. split; [exact H | apply Nat.eqb_refl].
Qed.

Lemma fresh_go_sound fuel k taken r :
  fresh_go fuel k taken = Some r ->
  memb r taken = false /\ k <= r /\ forall j, k <= j < r -> memb j taken = true.
Proof.
  revert k. induction fuel as [|f IH]; intros k; cbn [fresh_go]; destruct (memb k taken) eqn:E;
    try discriminate;
    (* k is not taken: it is the answer, whatever the fuel *)
    try (intros [= <-]; repeat split; [exact E|lia|lia]).
  intros H. apply IH in H as (H1 & H2 & H3). repeat split; [exact H1|lia|]. intros j Hj.
  destruct (Nat.eq_dec j k) as [->|Hne]; [exact E|]. apply H3. lia.
Qed.

(* the search runs out of fuel only on a window of fuel + 1 taken indices: more than |taken| *)
Lemma fresh_go_none fuel : forall k taken, fresh_go fuel k taken = None -> incl (seq k (S fuel)) taken.
Proof.
  induction fuel as [|f IH]; intros k taken; cbn [fresh_go]; destruct (memb k taken) eqn:E; try discriminate.
  - intros _ j [<-|[]]. now apply memb_In.
  - intros H j [<-|Hj]; [now apply memb_In|exact (IH (S k) taken H j Hj)].
Qed.

Lemma fresh_go_total fuel k taken : length taken <= fuel -> exists r, fresh_go fuel k taken = Some r.
Proof.
  intros Hlen. destruct (fresh_go fuel k taken) as [r|] eqn:E; [now exists r|].
  apply fresh_go_none, (NoDup_incl_length (seq_NoDup _ _)) in E. rewrite seq_length in E. lia.
Qed.
