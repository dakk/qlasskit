(* P_Texp.v — proofs about the model of the expression / statement translator
   (M_Texp.v): every translated expression denotes, under every assignment of the
   symbols, the value the typed reference evaluator computes (one joint induction,
   trans_eval_ind, instantiated for the meaning and for the shape/type invariants);
   statements and straight-line function bodies; the programs of the refutations
   stated in Prop_C01_texp.v.  Built ON the operator-level theorems of P_Types.v. *)
From Coq Require Import List Bool NArith ZArith Arith Lia.
From QV Require Import Bits Bexp BexpTT M_Codec P_Codec Generated M_Types P_Types M_Texp.
Import ListNotations.
Local Open Scope N_scope.

Lemma pw_p2 w : pw w = p2 w.
Proof. reflexivity. Qed.

Lemma obind_some {A B} (x : option A) (f : A -> option B) r :
  obind x f = Some r -> exists a, x = Some a /\ f a = Some r.
Proof. destruct x as [a|]; cbn [obind]; [|discriminate]. intros H. now exists a. Qed.

(* bind_inv H as a Ha: from H : obind x f = Some r, the value a of x with Ha : x = Some a; H becomes
   f a = Some r *)
Tactic Notation "bind_inv" hyp(H) "as" simple_intropattern(a) simple_intropattern(Ha) :=
  apply obind_some in H as (a & Ha & H).

(* the model combines partial results by matches of this shape *)
Lemma some2 {A B R} (x : option A) (y : option B) (f : A -> B -> R) r :
  match x, y with Some a, Some b => Some (f a b) | _, _ => None end = Some r ->
  exists a b, x = Some a /\ y = Some b /\ r = f a b.
Proof. destruct x as [a|], y as [b|]; try discriminate. intros [= <-]. now exists a, b. Qed.

Lemma some3 {A B C R} (x : option A) (y : option B) (z : option C) (f : A -> B -> C -> R) r :
  match x, y, z with Some a, Some b, Some c => Some (f a b c) | _, _, _ => None end = Some r ->
  exists a b c, x = Some a /\ y = Some b /\ z = Some c /\ r = f a b c.
Proof. destruct x as [a|], y as [b|], z as [c|]; try discriminate. intros [= <-]. now exists a, b, c. Qed.

Lemma option_map_some {A B} (f : A -> B) (x : option A) r :
  option_map f x = Some r -> exists a, x = Some a /\ r = f a.
Proof. destruct x as [a|]; cbn [option_map]; [|discriminate]. intros [= <-]. now exists a. Qed.

(* The inner fix of M_Texp.ty_eq under a name: [ty_eq (TTuple l) (TTuple m)] is convertible with
   [tys_eq l m], so proofs [fold] it and go by induction on the list.  The same device below for
   decode (decode_list), value_eqb (vals_eqb), arg_names (names_go), trans_exp and eval_exp on lists
   (trans_list, eval_list), decompose (decompose_go) and regroup (regroup_go). *)
Definition tys_eq := fix go (l m : list ty) : bool :=
  match l, m with
  | [], [] => true
  | x :: l', y :: m' => ty_eq x y && go l' m'
  | _, _ => false
  end.

Lemma ty_eq_tuple l m : ty_eq (TTuple l) (TTuple m) = tys_eq l m.
Proof. reflexivity. Qed.

Lemma ty_eq_true : forall a b, ty_eq a b = true -> a = b.
Proof.
  induction a as [|w|i f| |l IH] using ty_ind2; intros [|w'|i' f'| |m]; cbn [ty_eq]; try discriminate; intros H.
  - reflexivity.
  - apply Nat.eqb_eq in H. now subst.
  - apply andb_true_iff in H as [H1 H2]. apply Nat.eqb_eq in H1, H2. now subst.
  - reflexivity.
  - fold (tys_eq l m) in H. f_equal. revert m H.
    induction IH as [|x l Hx _ IHl]; intros [|y m] H; cbn [tys_eq] in H; try discriminate; [reflexivity|].
    apply andb_true_iff in H as [H1 H2]. f_equal; [now apply Hx|now apply IHl].
Qed.

Lemma ty_eq_refl : forall a, ty_eq a a = true.
Proof.
  induction a as [|w|i f| |l IH] using ty_ind2; cbn [ty_eq]; try reflexivity.
  - apply Nat.eqb_refl.
  - now rewrite !Nat.eqb_refl.
  - fold (tys_eq l l). induction IH as [|x l Hx _ IHl]; cbn [tys_eq]; [reflexivity|]. now rewrite Hx, IHl.
Qed.

Lemma ty_eq_iff a b : ty_eq a b = true <-> a = b.
Proof. split; [apply ty_eq_true|intros ->; apply ty_eq_refl]. Qed.

Lemma ty_eq_false a b : ty_eq a b = false -> a <> b.
Proof. intros H E. subst. rewrite ty_eq_refl in H. discriminate. Qed.

Lemma flat_of_list l : flat (of_list l) = l.
Proof.
  unfold of_list. cbn [flat]. induction l as [|e l IH]; cbn [map flat_map flat app]; [reflexivity|].
  now rewrite IH.
Qed.

Lemma syms_of_list num names : Nd (map (fun s => L (sym num s)) names) = of_list (map (sym num) names).
Proof. unfold of_list. now rewrite map_map. Qed.

Lemma all_leaves_map l es : all_leaves l = Some es -> l = map L es.
Proof.
  revert es; induction l as [|x l IH]; intros es H; cbn [all_leaves] in H.
  - now injection H as <-.
  - destruct x as [e|?]; cbn [leaf] in H; [|discriminate].
    destruct (all_leaves l) as [b|]; [|discriminate]. injection H as <-.
    cbn [map]. now rewrite (IH b eq_refl).
Qed.

Lemma all_leaves_of l : all_leaves (map L l) = Some l.
Proof. induction l as [|e l IH]; cbn [map all_leaves leaf]; [reflexivity|now rewrite IH]. Qed.

Lemma leaves_some v es : leaves v = Some es -> v = of_list es.
Proof. destruct v as [e|l]; cbn [leaves]; [discriminate|]. intros H. unfold of_list. f_equal. now apply all_leaves_map. Qed.

Lemma leaves_flat v es : leaves v = Some es -> flat v = es.
Proof. intros H. rewrite (leaves_some _ _ H). apply flat_of_list. Qed.

Lemma leaf_some v e : leaf v = Some e -> v = L e.
Proof. destruct v; cbn [leaf]; [now intros [= ->]|discriminate]. Qed.

Lemma to_texp_some r te : to_texp r = Some te -> fst te = fst r /\ snd r = of_list (snd te).
Proof.
  unfold to_texp. intros H. apply option_map_some in H as (l & Hl & ->). cbn [fst snd].
  split; [reflexivity|now apply leaves_some].
Qed.

Lemma lift_some x res : lift x = Some res -> exists r0, x = Some r0 /\ res = of_texp r0.
Proof. unfold lift. apply option_map_some. Qed.

Lemma to_texp_of_texp te : to_texp (of_texp te) = Some te.
Proof. unfold to_texp, of_texp, of_list. cbn [fst snd leaves]. rewrite all_leaves_of. now destruct te. Qed.

Definition decode_list := fix go (l : list ty) (bs : list bool) : option (list value) :=
  match l with
  | [] => match bs with [] => Some [] | _ => None end
  | x :: r =>
      match decode x (firstn (ty_size x) bs), go r (skipn (ty_size x) bs) with
      | Some a, Some b => Some (a :: b)
      | _, _ => None
      end
  end.

Lemma decode_tuple l bs : decode (TTuple l) bs = option_map VT (decode_list l bs).
Proof. reflexivity. Qed.

Lemma decode_list_cons x l bs vs : decode_list (x :: l) bs = Some vs ->
  exists a b, decode x (firstn (ty_size x) bs) = Some a /\ decode_list l (skipn (ty_size x) bs) = Some b /\ vs = a :: b.
Proof.
  apply some2.
Qed.

Lemma decode_bool bs v : decode TBool bs = Some v -> exists b, bs = [b] /\ v = VB b.
Proof. destruct bs as [|b [|]]; cbn [decode]; try discriminate. intros [= <-]. now exists b. Qed.

Lemma decode_qint w bs v : decode (TQint w) bs = Some v -> length bs = w /\ v = VI w (bits_val bs).
Proof.
  cbn [decode]. destruct (Nat.eqb_spec (length bs) w) as [E|E]; [|discriminate]. intros [= <-]. now split.
Qed.

Lemma decode_qfixed i f bs v : decode (TQfixed i f) bs = Some v ->
  length bs = (i + f)%nat /\ v = VF i f (fix_val i bs).
Proof.
  cbn [decode]. destruct (Nat.eqb_spec (length bs) (i + f)) as [E|E]; [|discriminate]. intros [= <-]. now split.
Qed.

Lemma decode_qchar bs v : decode TQchar bs = Some v -> length bs = 8%nat /\ v = VC (bits_val bs).
Proof.
  cbn [decode]. destruct (Nat.eqb_spec (length bs) 8) as [E|E]; [|discriminate]. intros [= <-]. now split.
Qed.

Lemma decode_type : forall t bs v, decode t bs = Some v -> type_of v = t /\ length bs = ty_size t.
Proof.
  induction t as [|w|i f| |l IH] using ty_ind2; intros bs v H.
  - apply decode_bool in H as (b & -> & ->). now split.
  - apply decode_qint in H as (Hl & ->). now split.
  - apply decode_qfixed in H as (Hl & ->). now split.
  - apply decode_qchar in H as (Hl & ->). now split.
  - rewrite decode_tuple in H. apply option_map_some in H as (vs & H & ->). cbn [type_of ty_size].
    assert (G : map type_of vs = l /\ length bs = list_sum (map ty_size l)).
    { revert bs vs H. induction IH as [|x l Hx _ IHl]; intros bs vs H.
      - cbn [decode_list] in H. destruct bs; [|discriminate]. injection H as <-. now split.
      - apply decode_list_cons in H as (a & b & Ea & Eb & ->). destruct (Hx _ _ Ea) as [T1 L1]. destruct (IHl _ _ Eb) as [T2 L2].
        cbn [map]. rewrite list_sum_cons.
        split; [now rewrite T1, T2|].
        rewrite firstn_length in L1. rewrite skipn_length in L2. lia. }
    destruct G as [G1 G2]. now rewrite G1.
Qed.

Lemma decode_encode : forall t bs v, decode t bs = Some v -> encode v = bs.
Proof.
  induction t as [|w|i f| |l IH] using ty_ind2; intros bs v H.
  - apply decode_bool in H as (b & -> & ->). reflexivity.
  - apply decode_qint in H as (Hl & ->). cbn [encode]. rewrite <- Hl. apply nbits_bits_val.
  - apply decode_qfixed in H as (Hl & ->). cbn [encode]. unfold fix_val.
    rewrite <- (qrepr_length i bs) in Hl. rewrite <- Hl, nbits_bits_val.
    rewrite qrepr_length in Hl. now apply unrepr_qrepr.
  - apply decode_qchar in H as (Hl & ->). cbn [encode]. rewrite <- Hl. apply nbits_bits_val.
  - rewrite decode_tuple in H. apply option_map_some in H as (vs & H & ->). cbn [encode].
    revert bs vs H. induction IH as [|x l Hx _ IHl]; intros bs vs H.
    + cbn [decode_list] in H. destruct bs; [|discriminate]. now injection H as <-.
    + apply decode_list_cons in H as (a & b & Ea & Eb & ->).
      cbn [flat_map]. rewrite (Hx _ _ Ea), (IHl _ _ Eb). apply firstn_skipn.
Qed.

Definition sem (rho : nat -> bool) (r : tres) (v : value) : Prop := den rho r = Some v.

Lemma sem_pair rho t tr v : sem rho (t, tr) v <-> decode t (map (beval rho) (flat tr)) = Some v.
Proof. reflexivity. Qed.

Lemma sem_type rho r v : sem rho r v -> type_of v = fst r.
Proof. intros H. now apply decode_type in H. Qed.

(* a bool is a bare expression, a sized value a flat list (what decompose_to_symbols names
   as translate_argument does) *)
Definition wf_res (r : tres) : Prop :=
  match fst r with
  | TBool => exists e, snd r = L e
  | TTuple _ => True
  | _ => exists l, snd r = of_list l
  end.

Lemma wf_bool e : wf_res (TBool, L e).
Proof. now exists e. Qed.

Lemma wf_of_texp te : fst te <> TBool -> wf_res (of_texp te).
Proof.
  unfold wf_res, of_texp. cbn [fst snd]. destruct (fst te); [intros N; now destruct N| | | |exact (fun _ => I)]; now eexists.
Qed.

Definition semw (rho : nat -> bool) (r : tres) (v : value) : Prop := sem rho r v /\ wf_res r.

Lemma semw_bool rho e b : beval rho e = b -> semw rho (TBool, L e) (VB b).
Proof. intros <-. split; [reflexivity|now exists e]. Qed.

Lemma semw_lift rho te v : sem rho (of_texp te) v -> type_of v <> TBool -> semw rho (of_texp te) v.
Proof.
  intros H N. split; [exact H|]. apply wf_of_texp. intros E. apply N. rewrite (sem_type _ _ _ H). exact E.
Qed.

Lemma sem_of_texp rho te v :
  sem rho (of_texp te) v <-> decode (fst te) (map (beval rho) (snd te)) = Some v.
Proof. unfold sem, den, of_texp. cbn [fst snd]. now rewrite flat_of_list. Qed.

Lemma sem_leaf_bool rho t e v : sem rho (t, L e) v -> t = TBool -> v = VB (beval rho e).
Proof. intros H ->. unfold sem, den in H. apply decode_bool in H as (b & H & ->). now injection H as <-. Qed.

Lemma sem_VB rho r e b : leaf (snd r) = Some e -> sem rho r (VB b) -> b = beval rho e.
Proof.
  intros Hl H. pose proof (sem_type _ _ _ H) as T. destruct r as [t tr]. cbn [fst snd] in *.
  apply leaf_some in Hl. subst. now injection (sem_leaf_bool _ _ _ _ H eq_refl).
Qed.

Lemma sem_texp rho r te v : to_texp r = Some te -> sem rho r v ->
  fst te = type_of v /\ decode (type_of v) (map (beval rho) (snd te)) = Some v.
Proof.
  intros Ht H. destruct (to_texp_some _ _ Ht) as [T S]. pose proof (sem_type _ _ _ H) as Ty.
  unfold sem, den in H. rewrite <- Ty, S, flat_of_list in H. split; [congruence|exact H].
Qed.

Lemma sem_VI rho r te w n : to_texp r = Some te -> sem rho r (VI w n) -> good te w /\ n = bv rho (snd te).
Proof.
  intros Ht H. destruct (sem_texp _ _ _ _ Ht H) as [T D]. apply decode_qint in D as [Hl E].
  rewrite map_length in Hl. injection E as ->. now repeat split.
Qed.

Lemma good_q te w : good te w -> is_qtype (fst te) = true.
Proof. intros [T _]. now rewrite T. Qed.

Lemma sem_qint_out rho te w n : fst te = TQint w -> length (snd te) = w -> bv rho (snd te) = n ->
  semw rho (of_texp te) (VI w n).
Proof.
  intros T Hl Hv. apply semw_lift; [|discriminate]. apply sem_of_texp. rewrite T. cbn [decode]. rewrite map_length, Hl, Nat.eqb_refl.
  unfold bv in Hv. now rewrite Hv.
Qed.

Lemma fix_val_map rho i l : fix_val i (map (beval rho) l) = fxv rho i l.
Proof. unfold fix_val, fxv, bv. now rewrite qrepr_map. Qed.

Lemma sem_VF rho r te i f n : to_texp r = Some te -> sem rho r (VF i f n) ->
  fst te = TQfixed i f /\ length (snd te) = (i + f)%nat /\ n = fxv rho i (snd te).
Proof.
  intros Ht H. destruct (sem_texp _ _ _ _ Ht H) as [T D]. apply decode_qfixed in D as [Hl E].
  rewrite map_length in Hl. injection E as ->. now rewrite fix_val_map.
Qed.

Lemma sem_qfixed_out rho i f l n : length l = (i + f)%nat -> fxv rho i l = n ->
  semw rho (of_texp (TQfixed i f, l)) (VF i f n).
Proof.
  intros Hl Hv. apply semw_lift; [|discriminate]. apply sem_of_texp. cbn [fst snd decode]. rewrite map_length, Hl, Nat.eqb_refl.
  now rewrite fix_val_map, Hv.
Qed.

Lemma fx_val_sem rho {x i f F r} : fx_val x i f F -> x = Some r -> semw rho (of_texp r) (VF i f (F rho)).
Proof. intros (res & E & Hl & Hv) Hx. rewrite E in Hx. injection Hx as <-. now apply sem_qfixed_out. Qed.

Lemma has_val_qint rho {x t w f r} : has_val x t w f -> x = Some r -> t = TQint w ->
  semw rho (of_texp r) (VI w (f rho)).
Proof.
  intros (r' & E & T & Hl & Hv) Hx ->. rewrite E in Hx. injection Hx as <-.
  now apply sem_qint_out.
Qed.

Lemma cmp_val_sem rho x f r : cmp_val x f -> x = Some r ->
  exists e, r = (TBool, [e]) /\ beval rho e = f rho.
Proof. intros (e & E & Hv) Hx. rewrite E in Hx. injection Hx as <-. exists e. now split. Qed.

Lemma unfold_bop_spec rho op es e : unfold_bop op es = Some e ->
  beval rho e = match op with
                | BoAnd => forallb id (map (beval rho) es)
                | BoOr => existsb id (map (beval rho) es)
                end.
Proof.
  revert e; induction es as [|x r IH]; intros e H; [discriminate|].
  destruct r as [|y r'].
  - cbn in H. injection H as <-. destruct op; cbn; [now rewrite andb_true_r|now rewrite orb_false_r].
  - cbn [unfold_bop] in H. apply option_map_some in H as (u & Hu & ->). specialize (IH _ Hu).
    destruct op; cbn [mk_bop]; [rewrite beval_and2|rewrite beval_or2]; rewrite IH; reflexivity.
Qed.

Lemma boolop_vals rho rs vs : Forall2 (sem rho) rs vs -> forall es bs,
  all_bool rs = true -> all_leaves (map snd rs) = Some es -> all_vb vs = Some bs ->
  bs = map (beval rho) es.
Proof.
  induction 1 as [|r v rs vs Hs _ IH]; intros es bs Hb Hl Hv.
  - cbn in Hl, Hv. injection Hl as <-. now injection Hv as <-.
  - unfold all_bool in Hb. cbn [forallb] in Hb. apply andb_true_iff in Hb as [Hb1 Hb2].
    cbn [map all_leaves] in Hl. destruct (leaf (snd r)) as [e|] eqn:El; [|discriminate].
    destruct (all_leaves (map snd rs)) as [es'|] eqn:El'; [|discriminate]. injection Hl as <-.
    destruct r as [t tr]. cbn [fst snd] in *. destruct t; try discriminate.
    apply leaf_some in El. subst tr. pose proof (sem_leaf_bool _ _ _ _ Hs eq_refl) as ->.
    cbn [all_vb] in Hv. apply option_map_some in Hv as (bs' & Hv & ->).
    cbn [map]. f_equal. now apply IH.
Qed.

Lemma eval_boolop_some op vs v : eval_boolop op vs = Some v ->
  vs <> [] /\ exists bs, all_vb vs = Some bs /\
    v = VB (match op with BoAnd => forallb id bs | BoOr => existsb id bs end).
Proof.
  unfold eval_boolop. destruct vs; [discriminate|]. intros H. apply option_map_some in H as (bs & H & ->).
  split; [discriminate|now exists bs].
Qed.

Lemma trans_boolop_sound rho op rs vs r v :
  Forall2 (sem rho) rs vs -> trans_boolop op rs = Some r -> eval_boolop op vs = Some v ->
  exists e, r = (TBool, L e) /\ v = VB (beval rho e).
Proof.
  intros HF Ht He. unfold trans_boolop in Ht. destruct (all_bool rs) eqn:Hb; [|discriminate].
  bind_inv Ht as es Hl. apply option_map_some in Ht as (e & Hu & ->).
  apply eval_boolop_some in He as (_ & bs & Hv & ->).
  exists e. now rewrite (boolop_vals _ _ _ HF _ _ Hb Hl Hv), <- (unfold_bop_spec rho op es e Hu).
Qed.

Lemma trans_un_sound rho op r v r' v' :
  sem rho r v -> trans_un op r = Some r' -> eval_un op v = Some v' -> semw rho r' v'.
Proof.
  intros Hs Ht He. pose proof (sem_type _ _ _ Hs) as T. destruct op; cbn [trans_un] in Ht; [| |discriminate].
  - destruct v; try discriminate. injection He as <-. rewrite <- T in Ht. cbn [type_of] in Ht.
    apply option_map_some in Ht as (e & Hl & ->). rewrite (sem_VB _ _ _ _ Hl Hs). exact (semw_bool rho (BNot e) _ eq_refl).
  - destruct v as [|w n| | |]; try discriminate. injection He as <-.
    destruct (is_qtype (fst r)); [|discriminate]. apply lift_some in Ht as (te' & Ht & ->).
    apply option_map_some in Ht as (te & Ht & ->). destruct (sem_VI _ _ _ _ _ Ht Hs) as [[G1 G2] ->].
    destruct (bitwise_not_spec rho te) as (B1 & B2 & B3 & _).
    apply sem_qint_out; [congruence|congruence|]. rewrite B3, G2. reflexivity.
Qed.

Lemma zip_ite_spec rho c : forall lt lf r, zip_ite c lt lf = Some r ->
  length (flat_map flat lt) = length (flat_map flat lf) ->
  map (beval rho) (flat_map flat r) =
    if beval rho c then map (beval rho) (flat_map flat lt) else map (beval rho) (flat_map flat lf).
Proof.
  induction lt as [|t lt IH]; intros [|f lf] r H Hlen; cbn [zip_ite] in H.
  - injection H as <-. now destruct (beval rho c).
  - injection H as <-. change (length (flat_map flat [])) with 0%nat in Hlen. symmetry in Hlen.
    apply length_zero_iff_nil in Hlen. rewrite Hlen. now destruct (beval rho c).
  - injection H as <-. apply length_zero_iff_nil in Hlen. rewrite Hlen. now destruct (beval rho c).
  - destruct (leaf t) as [a|] eqn:Ea; [|discriminate]. destruct (leaf f) as [b|] eqn:Eb; [|discriminate].
    destruct (zip_ite c lt lf) as [r'|] eqn:Er; [|discriminate]. injection H as <-.
    apply leaf_some in Ea, Eb. subst t f. cbn [flat_map flat app map] in *.
    injection Hlen as Hlen. rewrite (IH _ _ Er Hlen), beval_ite. now destruct (beval rho c).
Qed.

Lemma zip_ite_leaves c : forall lt lf r, zip_ite c lt lf = Some r -> exists l, r = map L l.
Proof.
  induction lt as [|t lt IH]; intros [|f lf] r H; cbn [zip_ite] in H; try (injection H as <-; now exists []).
  destruct (leaf t); [|discriminate]. destruct (leaf f); [|discriminate].
  destruct (zip_ite c lt lf) as [r'|] eqn:E; [|discriminate]. injection H as <-.
  destruct (IH _ _ E) as (l & ->). now exists (BIte c b b0 :: l).
Qed.

Lemma if_nonbool_sound rho cb t f T vt vf r :
  sem rho t vt -> sem rho f vf -> fst t = T -> T = fst f ->
  match snd t, snd f with
  | Nd lt, Nd lf => option_map (fun r => (T, Nd r)) (zip_ite cb lt lf)
  | _, _ => None
  end = Some r -> T <> TBool ->
  semw rho r (if beval rho cb then vt else vf).
Proof.
  intros Ht Hf E E' H NB. destruct t as [T1 [?|lt]], f as [T2 [?|lf]]; cbn [fst snd] in *; try discriminate. subst T1 T2.
  apply option_map_some in H as (r0 & Hz & ->).
  split; [|destruct (zip_ite_leaves _ _ _ _ Hz) as (lz & ->); exact (wf_of_texp (T, lz) NB)].
  pose proof (decode_type _ _ _ Ht) as [_ L1]. pose proof (decode_type _ _ _ Hf) as [_ L2].
  cbn [fst snd flat] in L1, L2. rewrite map_length in L1, L2.
  apply sem_pair. cbn [flat]. rewrite (zip_ite_spec rho cb lt lf r0 Hz) by congruence.
  destruct (beval rho cb); assumption.
Qed.

Lemma ty_eq_qint_false a b : ty_eq (TQint a) (TQint b) = false -> a <> b.
Proof. cbn [ty_eq]. intros H. now apply Nat.eqb_neq. Qed.

Lemma fill_qint_sem rho te w w' : good te w -> (w <= w')%nat ->
  fst (fill (TQint w') te) = TQint w' /\ semw rho (of_texp (fill (TQint w') te)) (VI w' (bv rho (snd te))).
Proof.
  intros G Hw. destruct (fill_good te w w' G) as [Ty Ln]. rewrite Nat.max_r in Ty, Ln by exact Hw.
  exact (conj Ty (sem_qint_out rho _ w' _ Ty Ln (fill_bv rho _ te))).
Qed.

Lemma crop_qint_sem rho te w w' : good te w -> (w' <= w)%nat ->
  fst (crop (TQint w') te) = TQint w' /\
  semw rho (of_texp (crop (TQint w') te)) (VI w' (bv rho (snd te) mod pw w')).
Proof.
  intros [T Ln] Hw.
  assert (Ty : fst (crop (TQint w') te) = TQint w').
  { rewrite crop_type. cbn [bit_size ty_size]. rewrite Ln, T. destruct (Nat.leb_spec w w'); [f_equal; lia|reflexivity]. }
  split; [exact Ty|]. apply sem_qint_out; [exact Ty| |apply crop_bv].
  rewrite crop_length. cbn [bit_size ty_size]. lia.
Qed.

(* the branches of an if-expression are brought to one type: as they are, or the narrower integer
   zero-extended; the evaluator widens the chosen value likewise *)
Lemma if_fill_sound rho t f vt vf t' f' (b : bool) v :
  sem rho t vt -> sem rho f vf ->
  (if ty_eq (fst t) (fst f) then Some (t, f)
   else if is_qtype (fst t) && is_qtype (fst f) then
     obind (to_texp t) (fun tt => obind (to_texp f) (fun ft =>
       if (bit_size (fst f) <? bit_size (fst t))%nat then Some (t, of_texp (fill (fst t) ft))
       else if (bit_size (fst t) <? bit_size (fst f))%nat then Some (of_texp (fill (fst f) tt), f)
       else Some (t, f)))
   else None) = Some (t', f') ->
  eval_if (VB b) vt vf = Some v ->
  exists vt' vf', sem rho t' vt' /\ sem rho f' vf' /\ fst t' = fst f' /\ v = if b then vt' else vf'.
Proof.
  intros Ht Hf Hfill Hev. cbn [eval_if] in Hev.
  pose proof (sem_type _ _ _ Ht) as Tt. pose proof (sem_type _ _ _ Hf) as Tf. rewrite Tt, Tf in Hev.
  destruct (ty_eq (fst t) (fst f)) eqn:E.
  - injection Hfill as <- <-. injection Hev as <-. apply ty_eq_true in E. exists vt, vf. exact (conj Ht (conj Hf (conj E eq_refl))).
  - destruct vt as [|wt x| | |]; try discriminate. destruct vf as [|wf y| | |]; try discriminate.
    injection Hev as <-. cbn [type_of] in Tt, Tf. rewrite <- Tt, <- Tf in Hfill, E. cbn [is_qtype andb] in Hfill.
    bind_inv Hfill as tt Htt. bind_inv Hfill as ft Hft.
    destruct (sem_VI _ _ _ _ _ Htt Ht) as [Gt ->]. destruct (sem_VI _ _ _ _ _ Hft Hf) as [Gf ->].
    apply ty_eq_qint_false in E. unfold bit_size in Hfill. cbn [ty_size] in Hfill.
    destruct (Nat.ltb_spec wf wt) as [W|W]; [|destruct (Nat.ltb_spec wt wf) as [W'|W']; [|lia]];
      injection Hfill as <- <-.
    + destruct (fill_qint_sem rho ft wf wt Gf ltac:(lia)) as [Ty S].
      exists (VI wt (bv rho (snd tt))), (VI wt (bv rho (snd ft))). replace (Nat.max wt wf) with wt by lia.
      repeat split; [exact Ht|exact (proj1 S)|unfold of_texp; cbn [fst]; congruence|now destruct b].
    + destruct (fill_qint_sem rho tt wt wf Gt ltac:(lia)) as [Ty S].
      exists (VI wf (bv rho (snd tt))), (VI wf (bv rho (snd ft))). replace (Nat.max wt wf) with wf by lia.
      repeat split; [exact (proj1 S)|exact Hf|unfold of_texp; cbn [fst]; congruence|now destruct b].
Qed.

Lemma trans_if_sound rho c t f vc vt vf r v :
  sem rho c vc -> sem rho t vt -> sem rho f vf ->
  trans_if c t f = Some r -> eval_if vc vt vf = Some v -> semw rho r v.
Proof.
  intros Hc Ht Hf Htr Hev. unfold trans_if in Htr. pose proof (sem_type _ _ _ Hc) as Tc.
  destruct vc as [b| | | |]; try discriminate. rewrite <- Tc in Htr. cbn [type_of] in Htr.
  bind_inv Htr as cb Hl. rewrite (sem_VB _ _ _ _ Hl Hc) in Hev.
  bind_inv Htr as [t' f'] Hfill.
  destruct (if_fill_sound rho t f vt vf t' f' _ v Ht Hf Hfill Hev) as (vt' & vf' & Ht' & Hf' & E & ->).
  destruct (fst t') eqn:T; try (eapply if_nonbool_sound; try eassumption; discriminate).
  bind_inv Htr as a Ha. bind_inv Htr as b' Hb. injection Htr as <-.
  pose proof (sem_type _ _ _ Ht') as T1. pose proof (sem_type _ _ _ Hf') as T2. rewrite <- E in T2. rewrite T in T1.
  destruct vt'; try discriminate. destruct vf'; try discriminate.
  rewrite (sem_VB _ _ _ _ Ha Ht'), (sem_VB _ _ _ _ Hb Hf').
  destruct (beval rho cb) eqn:Ec; apply semw_bool; now rewrite beval_ite, Ec.
Qed.

Lemma tuple_eq_bits_spec rho : forall args lb rb c0 c,
  tuple_eq_bits args lb rb c0 = Some c ->
  length lb = list_sum (map ty_size args) -> length rb = list_sum (map ty_size args) ->
  beval rho c = beval rho c0 && forallb eqb2 (combine (map (beval rho) lb) (map (beval rho) rb)).
Proof.
  induction args as [|a args IH]; intros lb rb c0 c H Ll Lr; cbn [tuple_eq_bits] in H.
  - injection H as <-. cbn in Ll, Lr. apply length_zero_iff_nil in Ll, Lr. subst. cbn. now rewrite andb_true_r.
  - cbn [map] in Ll, Lr. rewrite list_sum_cons in Ll, Lr.
    assert (H' : tuple_eq_bits args (skipn (ty_size a) lb) (skipn (ty_size a) rb)
                   (eq_zip (firstn (ty_size a) lb) (firstn (ty_size a) rb) c0) = Some c).
    { destruct a; try exact H; try discriminate;
        (destruct ((_ <=? length lb)%nat && (_ <=? length rb)%nat); [exact H|discriminate]). }
    clear H. rewrite (IH _ _ _ _ H') by (rewrite skipn_length; lia).
    rewrite eq_zip_spec, <- andb_assoc. f_equal.
    rewrite (forallb_combine_split eqb2 (ty_size a) (map (beval rho) lb) (map (beval rho) rb)).
    + now rewrite !firstn_map, !skipn_map.
    + rewrite !firstn_length, !map_length. lia.
Qed.

Definition vals_eqb := fix go (l m : list value) : bool :=
  match l, m with
  | [], [] => true
  | x :: l', y :: m' => value_eqb x y && go l' m'
  | _, _ => false
  end.
Lemma value_eqb_tuple l m : value_eqb (VT l) (VT m) = vals_eqb l m.
Proof. reflexivity. Qed.

Section value_ind2.
  Variable P : value -> Prop.
  Hypotheses (Hb : forall b, P (VB b)) (Hi : forall w n, P (VI w n)) (Hf : forall i f n, P (VF i f n))
    (Hc : forall c, P (VC c)) (Ht : forall l, Forall P l -> P (VT l)).
  Fixpoint value_ind2 (v : value) : P v :=
    match v with
    | VB b => Hb b | VI w n => Hi w n | VF i f n => Hf i f n | VC c => Hc c
    | VT l => Ht l ((fix go (l : list value) : Forall P l :=
                       match l with [] => Forall_nil _ | x :: r => Forall_cons x (value_ind2 x) (go r) end) l)
    end.
End value_ind2.

Lemma value_eqb_eq : forall a b, value_eqb a b = true <-> a = b.
Proof.
  induction a as [x|w x|i f x|c|l IH] using value_ind2; intros [y|w' y|i' f' y|c'|m];
    try (split; discriminate); cbn [value_eqb].
  - rewrite Bool.eqb_true_iff. split; congruence.
  - rewrite andb_true_iff, Nat.eqb_eq, N.eqb_eq. split; [intros [-> ->]; reflexivity|intros [= -> ->]; now split].
  - rewrite !andb_true_iff, !Nat.eqb_eq, N.eqb_eq.
    split; [intros [[-> ->] ->]; reflexivity|intros [= -> -> ->]; now repeat split].
  - rewrite N.eqb_eq. split; congruence.
  - fold (vals_eqb l m). revert m. induction IH as [|v l Hv _ IHl]; intros [|u m]; cbn [vals_eqb];
      try (split; discriminate); [split; reflexivity|].
    rewrite andb_true_iff, Hv, IHl. split; [intros [-> [= ->]]; reflexivity|intros [= -> ->]; now split].
Qed.

(* two bit lists decoded at one type: decode is injective (decode_encode), so the values are equal
   exactly when the lists are *)
Lemma decode_eqb t b1 b2 a1 a2 : decode t b1 = Some a1 -> decode t b2 = Some a2 ->
  value_eqb a1 a2 = forallb eqb2 (combine b1 b2).
Proof.
  intros H1 H2. apply eq_true_iff_eq. rewrite value_eqb_eq, forallb_eqb2_eq.
  - split; [|intros E; rewrite E in H1; congruence].
    intros E. rewrite <- (decode_encode _ _ _ H1), <- (decode_encode _ _ _ H2). now rewrite E.
  - destruct (decode_type _ _ _ H1) as [_ L1]. destruct (decode_type _ _ _ H2) as [_ L2]. congruence.
Qed.

Lemma fix_align_spec i1 f1 i2 f2 i f : fix_align i1 f1 i2 f2 = Some (i, f) ->
  align_ok i1 f1 i2 f2 /\ i = Nat.max i1 i2 /\ f = Nat.max f1 f2.
Proof.
  unfold fix_align, align_ok. destruct (Nat.eqb i1 i2 && Nat.eqb f1 f2) eqn:E.
  - apply andb_true_iff in E as [E1 E2]. apply Nat.eqb_eq in E1, E2. subst. intros [= <- <-].
    rewrite !Nat.max_id. split; [now left|now split].
  - destruct (is_shipped_qfixed (Nat.max i1 i2) (Nat.max f1 f2)) eqn:S; [|discriminate].
    intros [= <- <-]. split; [now right|now split].
Qed.

(* cmp_methods m x y: the six comparison methods m o of a class compare the numbers x and y as
   num_cmp does; the four order methods may all raise *)
Definition cmp_methods (m : binop -> option texp) (x y : (nat -> bool) -> N) : Prop :=
  (cmp_val (m OEq) (fun rho => x rho =? y rho) /\ cmp_val (m ONeq) (fun rho => negb (x rho =? y rho))) /\
  ((m OGt = None /\ m OLt = None /\ m OLte = None /\ m OGte = None) \/
   (cmp_val (m OGt) (fun rho => y rho <? x rho) /\ cmp_val (m OLt) (fun rho => x rho <? y rho)
    /\ cmp_val (m OLte) (fun rho => x rho <=? y rho) /\ cmp_val (m OGte) (fun rho => y rho <=? x rho))).

Lemma cmp_table rho m x y op o res0 c : cmp_methods m x y ->
  cop_binop op = Some o -> m o = Some res0 -> num_cmp op (x rho) (y rho) = Some c ->
  exists e, res0 = (TBool, [e]) /\ beval rho e = c.
Proof.
  intros [[H1 H2] HO] Ho Hb Hc.
  destruct op; try discriminate; injection Ho as <-; injection Hc as <-;
    [exact (cmp_val_sem rho _ _ _ H1 Hb)|exact (cmp_val_sem rho _ _ _ H2 Hb)|..];
    (destruct HO as [(A & B & C & D)|(A & B & C & D)]; [congruence|]).
  - exact (cmp_val_sem rho _ _ _ B Hb).
  - exact (cmp_val_sem rho _ _ _ C Hb).
  - exact (cmp_val_sem rho _ _ _ A Hb).
  - exact (cmp_val_sem rho _ _ _ D Hb).
Qed.

(* the order methods of QintImp raise on an empty operand *)
Lemma qint_cmp_methods w lt rt : is_qtype (fst lt) = true -> is_qtype (fst rt) = true ->
  cmp_methods (fun o => type_binop (TQint w) o lt rt) (fun rho => bv rho (snd lt)) (fun rho => bv rho (snd rt)).
Proof.
  intros Ql Qr. split; [exact (qint_eq_spec lt rt Ql Qr)|].
  assert (D : forall l : list bexp, l = [] \/ l <> []) by (intros [|]; [now left|now right]).
  destruct (D (snd lt)) as [E1|N1]; [left; exact (qint_order_raises lt rt (or_introl E1))|].
  destruct (D (snd rt)) as [E2|N2]; [left; exact (qint_order_raises lt rt (or_intror E2))|].
  right. exact (qint_order_spec lt rt Ql Qr N1 N2).
Qed.

(* Qchar has only == and != (those of Qint) *)
Lemma qchar_cmp_methods lt rt : is_qtype (fst lt) = true -> is_qtype (fst rt) = true ->
  cmp_methods (fun o => type_binop TQchar o lt rt) (fun rho => bv rho (snd lt)) (fun rho => bv rho (snd rt)).
Proof.
  intros Ql Qr. exact (conj (qint_eq_spec lt rt Ql Qr) (or_introl (conj eq_refl (conj eq_refl (conj eq_refl eq_refl))))).
Qed.

Lemma qfixed_cmp_methods i1 f1 i2 f2 l r :
  align_ok i1 f1 i2 f2 -> length l = (i1 + f1)%nat -> length r = (i2 + f2)%nat ->
  (0 < Nat.max i1 i2 + Nat.max f1 f2)%nat ->
  cmp_methods (fun o => type_binop (TQfixed i1 f1) o (TQfixed i1 f1, l) (TQfixed i2 f2, r))
    (fun rho => fxv rho i1 l * p2 (Nat.max f1 f2 - f1)) (fun rho => fxv rho i2 r * p2 (Nat.max f1 f2 - f2)).
Proof.
  intros Hok Ll Lr Hpos. destruct (qfixed_cmp_mixed_spec i1 f1 i2 f2 l r Hok Ll Lr Hpos) as (H1 & H2 & H3 & H4 & H5 & H6).
  exact (conj (conj H1 H2) (or_intror (conj H3 (conj H4 (conj H5 H6))))).
Qed.

Lemma sem_VC rho r te c : to_texp r = Some te -> sem rho r (VC c) ->
  fst te = TQchar /\ length (snd te) = 8%nat /\ c = bv rho (snd te).
Proof.
  intros Ht H. destruct (sem_texp _ _ _ _ Ht H) as [T D]. apply decode_qchar in D as [Hl E].
  rewrite map_length in Hl. injection E as ->. now repeat split.
Qed.

(* the comparison of two sized operands: a method of the left operand's class on two flat lists *)
Lemma trans_cmp_sized op l r : is_qtype (fst l) = true ->
  trans_cmp op l r =
    if is_qtype (fst r) && comparable (fst l) (fst r) then
      obind (cop_binop op) (fun o => obind (to_texp l) (fun lt => obind (to_texp r) (fun rt =>
      obind (type_binop (fst l) o lt rt) (fun res =>
        match snd res with [e] => Some (fst res, L e) | _ => None end))))
    else None.
Proof. unfold trans_cmp. intros Q. destruct (fst l); try discriminate Q; reflexivity. Qed.

(* so it is right as soon as the methods of that class compare the numbers the evaluator compares *)
Lemma cmp_sized_sound rho op l r res : is_qtype (fst l) = true -> trans_cmp op l r = Some res ->
  exists lt rt, to_texp l = Some lt /\ to_texp r = Some rt /\
    forall x y c, cmp_methods (fun o => type_binop (fst l) o lt rt) x y -> num_cmp op (x rho) (y rho) = Some c ->
      exists e, res = (TBool, L e) /\ beval rho e = c.
Proof.
  intros Q Ht. rewrite trans_cmp_sized in Ht by exact Q. destruct (_ && _) in Ht; [|discriminate Ht].
  bind_inv Ht as o Ho. bind_inv Ht as lt Hlt. bind_inv Ht as rt Hrt. bind_inv Ht as res0 Hb.
  exists lt, rt. split; [exact Hlt|split; [exact Hrt|]]. intros x y c M Hc.
  destruct (cmp_table rho _ x y op o res0 c M Ho Hb Hc) as (e & -> & <-). injection Ht as <-. now exists e.
Qed.

Lemma cmp_bool_sound rho op l r x y res v :
  sem rho l (VB x) -> sem rho r (VB y) -> trans_cmp op l r = Some res -> eval_cmp op (VB x) (VB y) = Some v ->
  exists e, res = (TBool, L e) /\ v = VB (beval rho e).
Proof.
  intros Hl Hr Ht He. unfold trans_cmp in Ht. rewrite <- (sem_type _ _ _ Hl), <- (sem_type _ _ _ Hr) in Ht.
  bind_inv Ht as a Ha. bind_inv Ht as b Hb.
  rewrite (sem_VB _ _ _ _ Ha Hl), (sem_VB _ _ _ _ Hb Hr) in He.
  destruct op; try discriminate; injection Ht as <-; cbn [eval_cmp] in He; injection He as <-;
    eexists; (split; [reflexivity|]); cbn [snd qbool_eq qbool_neq].
  - now rewrite beval_b_eq.
  - now rewrite beval_b_neq.
Qed.

(* == and != of two tuples of one type: tuple_eq_bits on the leaves, negated for != *)
Lemma trans_cmp_tuple op args trl trr res : trans_cmp op (TTuple args, trl) (TTuple args, trr) = Some res ->
  exists lb rb c, leaves trl = Some lb /\ leaves trr = Some rb /\ tuple_eq_bits args lb rb btrue = Some c /\
    (op = CoEq \/ op = CoNe) /\ res = (TBool, L (match op with CoNe => BNot c | _ => c end)).
Proof.
  unfold trans_cmp. cbn [fst snd]. destruct args as [|a0 al]; [discriminate|]. rewrite ty_eq_refl. cbn [negb]. intros Ht.
  assert (Hop : op = CoEq \/ op = CoNe) by (destruct op; try discriminate Ht; auto).
  destruct Hop as [-> | ->]; bind_inv Ht as lb Hlb; bind_inv Ht as rb Hrb; bind_inv Ht as c Hc; injection Ht as <-;
    exists lb, rb, c; auto 6.
Qed.

Lemma cmp_tuple_sound rho op l r ls ms res v :
  sem rho l (VT ls) -> sem rho r (VT ms) -> trans_cmp op l r = Some res -> eval_cmp op (VT ls) (VT ms) = Some v ->
  exists e, res = (TBool, L e) /\ v = VB (beval rho e).
Proof.
  intros Hl Hr Ht He. pose proof (sem_type _ _ _ Hl) as Tl. pose proof (sem_type _ _ _ Hr) as Tr.
  destruct l as [tl trl], r as [tr trr]. cbn [fst] in Tl, Tr. subst tl tr.
  cbn [eval_cmp] in He. destruct (ty_eq (type_of (VT ls)) (type_of (VT ms))) eqn:TE; [|discriminate].
  destruct (flat_tuple_ty (type_of (VT ls))); [|discriminate]. cbn [andb] in He.
  apply ty_eq_true in TE. rewrite <- TE in Ht, Hr. cbn [type_of] in Ht, Hl, Hr.
  destruct (trans_cmp_tuple _ _ _ _ _ Ht) as (lb & rb & c & Hlb & Hrb & Hc & Hop & ->).
  apply -> sem_pair in Hl. apply -> sem_pair in Hr.
  rewrite (leaves_flat _ _ Hlb) in Hl. rewrite (leaves_flat _ _ Hrb) in Hr.
  destruct (decode_type _ _ _ Hl) as [_ L1]. destruct (decode_type _ _ _ Hr) as [_ L2].
  rewrite map_length in L1, L2. cbn [ty_size] in L1, L2.
  pose proof (tuple_eq_bits_spec rho _ _ _ _ _ Hc L1 L2) as Hv. cbn [btrue beval geval bool_alg b_true andb] in Hv.
  pose proof (decode_eqb _ _ _ _ _ Hl Hr) as Hq. rewrite value_eqb_tuple in Hq.
  destruct Hop as [-> | ->]; injection He as <-; eexists; (split; [reflexivity|]);
    fold vals_eqb; rewrite Hq, <- Hv; reflexivity.
Qed.

Lemma eval_cmp_char op x y v : eval_cmp op (VC x) (VC y) = Some v ->
  exists c, num_cmp op x y = Some c /\ v = VB c.
Proof.
  cbn [eval_cmp]. intros He. destruct op; try discriminate He; apply option_map_some in He as (c & Hc & ->); now exists c.
Qed.

Lemma trans_cmp_sound rho op l r vl vr res v :
  sem rho l vl -> sem rho r vr -> trans_cmp op l r = Some res -> eval_cmp op vl vr = Some v ->
  exists e, res = (TBool, L e) /\ v = VB (beval rho e).
Proof.
  intros Hl Hr Ht He. pose proof (sem_type _ _ _ Hl) as Tl.
  destruct vl as [x|wl x|i1 f1 x|x|ls]; destruct vr as [y|wr y|i2 f2 y|y|ms]; try discriminate He; cbn [type_of] in Tl.
  (* sized operands: one argument, given the numbers the class of the left operand compares *)
  2-4: destruct (cmp_sized_sound rho op l r res) as (lt & rt & Hlt & Hrt & K); [now rewrite <- Tl|exact Ht|];
    rewrite <- Tl in K.
  - exact (cmp_bool_sound rho op l r x y res v Hl Hr Ht He).
  - destruct (sem_VI _ _ _ _ _ Hlt Hl) as [G1 ->]. destruct (sem_VI _ _ _ _ _ Hrt Hr) as [G2 ->].
    apply option_map_some in He as (c & Hc & ->).
    destruct (K _ _ c (qint_cmp_methods wl lt rt (good_q _ _ G1) (good_q _ _ G2)) Hc) as (e & -> & <-). now exists e.
  - destruct (sem_VF _ _ _ _ _ _ Hlt Hl) as (G1 & G2 & ->). destruct (sem_VF _ _ _ _ _ _ Hrt Hr) as (G3 & G4 & ->).
    destruct lt as [T1 l0], rt as [T2 r0]. cbn [fst snd] in *. subst T1 T2.
    cbn [eval_cmp] in He. destruct (fix_align i1 f1 i2 f2) as [[i f]|] eqn:Ha; [|discriminate].
    destruct (Nat.ltb_spec 0 (i + f)) as [Hpos|]; [|discriminate].
    apply option_map_some in He as (c & Hc & ->). apply fix_align_spec in Ha as (Hok & -> & ->).
    destruct (K _ _ c (qfixed_cmp_methods i1 f1 i2 f2 l0 r0 Hok G2 G4 Hpos) Hc) as (e & -> & <-). now exists e.
  - destruct (sem_VC _ _ _ _ Hlt Hl) as (G1 & G2 & ->). destruct (sem_VC _ _ _ _ Hrt Hr) as (G3 & G4 & ->).
    destruct (eval_cmp_char _ _ _ _ He) as (c & Hc & ->).
    destruct (K _ _ c (qchar_cmp_methods lt rt ltac:(now rewrite G1) ltac:(now rewrite G3)) Hc) as (e & -> & <-). now exists e.
  - exact (cmp_tuple_sound rho op l r ls ms res v Hl Hr Ht He).
Qed.

Lemma is_pow2_spec y : is_pow2 y = true -> y = p2 (N.to_nat (N.log2 y)).
Proof.
  unfold is_pow2. intros H. apply andb_true_iff in H as [_ H]. apply N.eqb_eq in H.
  unfold p2. now rewrite N2Nat.id.
Qed.

(* the method a binary operator dispatches to (the shifts are not methods of the types) *)
Definition aop_binop (op : aop) : option binop :=
  match op with
  | AoAdd => Some OAdd | AoSub => Some OSub | AoMul => Some OMul | AoMod => Some OMod
  | AoXor => Some OXor | AoAnd => Some OAnd | AoOr => Some OOr
  | _ => None
  end.

(* the BinOp branch on a sized left operand, outside the Qint / Qfixed mix: a method of the left
   operand's class (of the right one's for &) on two flat lists, or a shift of the left one *)
Lemma trans_bin_sized op sh l r : is_qtype (fst l) = true ->
  (is_qint (fst l) && is_qfixed (fst r)) || (is_qfixed (fst l) && is_qint (fst r)) = false ->
  trans_bin op sh l r = obind (to_texp l) (fun lt =>
    match aop_binop op with
    | Some o => obind (to_texp r) (fun rt =>
                  lift (type_binop (match op with AoAnd => fst r | _ => fst l end) o lt rt))
    | None => match op with
              | AoShl => match sh with Some (Some k) => lift (shift_left lt k) | _ => None end
              | AoShr => match sh with Some (Some k) => lift (shift_right lt k) | _ => None end
              | _ => None
              end
    end).
Proof.
  intros Q M. unfold trans_bin. rewrite M, Q. replace (is_bool (fst l)) with false by (now destruct (fst l)).
  now destruct op.
Qed.

Lemma qint_arith_sound rho op o sh lt rt wl wr r0 v :
  good lt wl -> good rt wr -> aop_binop op = Some o ->
  type_binop (match op with AoAnd => TQint wr | _ => TQint wl end) o lt rt = Some r0 ->
  eval_bin op sh (VI wl (bv rho (snd lt))) (VI wr (bv rho (snd rt))) = Some v ->
  semw rho (of_texp r0) v.
Proof.
  intros G1 G2 Eo Hb He. pose proof (good_q _ _ G1) as Ql. pose proof (good_q _ _ G2) as Qr.
  pose proof (good_wf _ _ G1) as W1. pose proof (good_wf _ _ G2) as W2.
  pose proof G1 as [T1 L1]. pose proof G2 as [T2 L2].
  pose proof (bitwise_type_good G1 G2) as BT.
  pose proof (fun op f F Hop HF Hff => qint_bitwise_spec op f F Hop HF Hff lt rt Ql Qr W1 W2) as BW. rewrite L1, L2 in BW.
  destruct op; try discriminate; injection Eo as <-; cbn [type_binop] in Hb; cbn [eval_bin] in He.
  - injection He as <-.
    pose proof (qint_add_spec (TQint wl) lt rt Ql Qr W1 W2) as H. cbv zeta in H. rewrite L1, L2 in H.
    exact (has_val_qint rho H Hb (add_type_good G1 G2)).
  - injection He as <-.
    pose proof (qint_sub_dispatch lt rt Ql Qr W1 W2) as H. cbv zeta in H. rewrite L1, L2, T1 in H.
    exact (has_val_qint rho H Hb (wider_good G1 G2)).
  - destruct (Nat.ltb_spec 0 wl) as [P1|]; [|discriminate]. destruct (Nat.ltb_spec 0 wr) as [P2|]; [|discriminate].
    injection He as <-. pose proof (qint_mul_spec lt rt wl wr G1 G2 P1 P2) as H. cbv zeta in H.
    exact (has_val_qint rho H Hb eq_refl).
  - destruct (Nat.ltb_spec 0 wr) as [P2|]; [|discriminate].
    destruct (is_pow2 (bv rho (snd rt))) eqn:PW; [|discriminate]. injection He as <-.
    destruct (qint_mod_spec lt rt wr T2 P2 Ql W1 W2) as (r1 & E1 & Ty & Ln & _).
    destruct (qint_mod_pow2 lt rt wr T2 P2 Ql W1 W2) as (r2 & E2 & Hv).
    rewrite Hb in E1, E2. injection E1 as <-. injection E2 as <-.
    apply is_pow2_spec in PW. specialize (Hv rho _ PW). rewrite <- PW in Hv.
    apply sem_qint_out; [|rewrite Ln, L1; reflexivity|exact Hv].
    rewrite Ty, L1, T1. destruct (Nat.ltb_spec wr wl); f_equal; lia.
  - injection He as <-. exact (has_val_qint rho (BW _ xorb N.lxor beval_xor2 N.lxor_spec eq_refl) Hb BT).
  - injection He as <-. exact (has_val_qint rho (BW _ andb N.land beval_and2 N.land_spec eq_refl) Hb BT).
  - injection He as <-. exact (has_val_qint rho (BW _ orb N.lor beval_or2 N.lor_spec eq_refl) Hb BT).
Qed.

(* a shift by a constant: of the right operand only the constant read off the syntax is used, its
   value y plays no part *)
Lemma shift_sound rho op sh lt wl wr y res v :
  good lt wl ->
  match op with
  | AoShl => match sh with Some (Some k) => lift (shift_left lt k) | _ => None end
  | AoShr => match sh with Some (Some k) => lift (shift_right lt k) | _ => None end
  | _ => None
  end = Some res ->
  eval_bin op sh (VI wl (bv rho (snd lt))) (VI wr y) = Some v -> semw rho res v.
Proof.
  intros [T1 L1] Ht He.
  destruct op; try discriminate; destruct sh as [[k|]|]; try discriminate;
    injection He as <-; apply lift_some in Ht as (r0 & Hb & ->).
  1: destruct (shift_left_spec rho _ _ _ Hb) as (Ty & Ln & Hv).
  2: destruct (shift_right_spec rho _ _ _ Hb) as (Ty & Ln & Hv).
  all: rewrite T1 in *; unfold bit_size in *; cbn [ty_size] in *;
    apply sem_qint_out; [exact Ty|rewrite Ln, L1; lia|exact Hv].
Qed.

Lemma qfixed_arith_sound rho op o sh i1 f1 i2 f2 l r r0 v :
  length l = (i1 + f1)%nat -> length r = (i2 + f2)%nat -> aop_binop op = Some o ->
  type_binop (match op with AoAnd => TQfixed i2 f2 | _ => TQfixed i1 f1 end) o
             (TQfixed i1 f1, l) (TQfixed i2 f2, r) = Some r0 ->
  eval_bin op sh (VF i1 f1 (fxv rho i1 l)) (VF i2 f2 (fxv rho i2 r)) = Some v ->
  semw rho (of_texp r0) v.
Proof.
  intros Ll Lr Eo Hb He. cbn [eval_bin] in He. destruct (fix_align i1 f1 i2 f2) as [[i f]|] eqn:Ha; [|discriminate].
  apply fix_align_spec in Ha as (Hok & -> & ->). cbv zeta in He.
  destruct op; try discriminate; injection Eo as <-; cbn [type_binop] in Hb; injection He as <-.
  - exact (fx_val_sem rho (qfixed_add_mixed_spec i1 f1 i2 f2 l r Hok Ll Lr) Hb).
  - exact (fx_val_sem rho (qfixed_sub_mixed_spec i1 f1 i2 f2 l r Hok Ll Lr) Hb).
Qed.

(* QfixedImp.mul of a Qfixed and a Qint operand, in either order: it succeeds only on a constant,
   non-empty integer operand, and multiplies by it *)
Lemma qfixed_mul_int_sound rho i f l wc cb a b r0 : length l = (i + f)%nat ->
  (a = (TQfixed i f, l) /\ b = (TQint wc, cb)) \/ (a = (TQint wc, cb) /\ b = (TQfixed i f, l)) ->
  qfixed_mul (TQfixed i f) a b = Some r0 ->
  semw rho (of_texp r0) (VF i f ((fxv rho i l * bv rho cb) mod pw (i + f))).
Proof.
  intros Ll Hab Hb.
  assert (C : forallb is_const_bit cb = true /\ cb <> []).
  { revert Hb. destruct Hab as [[-> ->]|[-> ->]]; unfold qfixed_mul, guard2;
      cbn [fst snd is_qtype is_qint andb obind]; unfold is_const; cbn [snd];
      (destruct (forallb is_const_bit cb); cbn [negb]; [|discriminate]);
      (destruct cb; [discriminate|]); intros _; (split; [reflexivity|discriminate]). }
  destruct C as [Hc Hne].
  assert (S : fx_val (qfixed_mul (TQfixed i f) a b) i f (fun rho => (fxv rho i l * const_bits_val cb) mod p2 (i + f)))
    by (destruct Hab as [[-> ->]|[-> ->]]; [apply qfixed_mul_spec|apply qfixed_mul_left_spec]; assumption).
  rewrite (is_const_bv rho cb Hc). exact (fx_val_sem rho S Hb).
Qed.

Lemma trans_bin_sound rho op sh l r vl vr res v :
  sem rho l vl -> sem rho r vr -> trans_bin op sh l r = Some res -> eval_bin op sh vl vr = Some v ->
  semw rho res v.
Proof.
  intros Hl Hr Ht He.
  pose proof (sem_type _ _ _ Hl) as Tl. pose proof (sem_type _ _ _ Hr) as Tr.
  destruct vl as [x|wl x|i1 f1 x|x|ls]; destruct vr as [y|wr y|i2 f2 y|y|ms]; try discriminate He;
    cbn [type_of] in Tl, Tr; destruct l as [tl trl], r as [tr trr]; cbn [fst] in Tl, Tr; subst tl tr.
  (* a Qint with a Qfixed, in either order: only the multiplication *)
  3-4: unfold trans_bin in Ht; cbn [fst snd is_bool is_qint is_qfixed andb orb] in Ht;
    cbn [eval_bin] in He; destruct op; try discriminate He; injection He as <-;
    bind_inv Ht as lt Hlt; bind_inv Ht as rt Hrt;
    apply lift_some in Ht as (r0 & Hb & ->).
  - (* bool, bool *)
    unfold trans_bin in Ht. cbn [fst snd is_bool andb] in Ht. cbn [eval_bin] in He.
    destruct op; try discriminate He; injection He as <-;
      bind_inv Ht as a Ha; bind_inv Ht as b Hb; injection Ht as <-;
      rewrite (sem_VB _ (TBool, trl) _ _ Ha Hl), (sem_VB _ (TBool, trr) _ _ Hb Hr).
    + apply semw_bool, beval_xor2.
    + apply semw_bool, beval_and2.
    + apply semw_bool, beval_or2.
  - (* Qint, Qint *)
    rewrite trans_bin_sized in Ht by reflexivity. cbn [fst] in Ht.
    bind_inv Ht as lt Hlt. destruct (sem_VI _ _ _ _ _ Hlt Hl) as [G1 ->].
    destruct (aop_binop op) as [o|] eqn:Eo; [|exact (shift_sound rho op sh lt wl wr y res v G1 Ht He)].
    bind_inv Ht as rt Hrt. apply lift_some in Ht as (r0 & Hb & ->).
    destruct (sem_VI _ _ _ _ _ Hrt Hr) as [G2 ->].
    exact (qint_arith_sound rho op o sh lt rt wl wr r0 v G1 G2 Eo Hb He).
  - (* Qint * Qfixed *)
    destruct (sem_VI _ _ _ _ _ Hlt Hl) as [[T1 L1] ->]. destruct (sem_VF _ _ _ _ _ _ Hrt Hr) as (T2 & L2 & ->).
    destruct lt as [T cb], rt as [T' l0]. cbn [fst snd] in *. subst T T'.
    exact (qfixed_mul_int_sound rho i2 f2 l0 wl cb _ _ r0 L2 (or_intror (conj eq_refl eq_refl)) Hb).
  - (* Qfixed * Qint *)
    destruct (sem_VF _ _ _ _ _ _ Hlt Hl) as (T1 & L1 & ->). destruct (sem_VI _ _ _ _ _ Hrt Hr) as [[T2 L2] ->].
    destruct lt as [T l0], rt as [T' cb]. cbn [fst snd] in *. subst T T'.
    exact (qfixed_mul_int_sound rho i1 f1 l0 wr cb _ _ r0 L1 (or_introl (conj eq_refl eq_refl)) Hb).
  - (* Qfixed, Qfixed *)
    rewrite trans_bin_sized in Ht by reflexivity. cbn [fst] in Ht.
    bind_inv Ht as lt Hlt. destruct (sem_VF _ _ _ _ _ _ Hlt Hl) as (T1 & L1 & ->).
    destruct (aop_binop op) as [o|] eqn:Eo;
      [|cbn [eval_bin] in He; destruct (fix_align i1 f1 i2 f2) as [[? ?]|]; [destruct op|]; discriminate].
    bind_inv Ht as rt Hrt. apply lift_some in Ht as (r0 & Hb & ->).
    destruct (sem_VF _ _ _ _ _ _ Hrt Hr) as (T2 & L2 & ->).
    destruct lt as [T l0], rt as [T' r1]. cbn [fst snd] in *. subst T T'.
    exact (qfixed_arith_sound rho op o sh i1 f1 i2 f2 l0 r1 r0 v L1 L2 Eo Hb He).
Qed.

Lemma fxv_split rho i l :
  fxv rho i l = bv rho (rev (skipn i l)) + p2 (length l - i) * bv rho (firstn i l).
Proof.
  unfold fxv, qrepr. rewrite bv_app, rev_length, skipn_length. reflexivity.
Qed.

Lemma ty_good_tuple l : ty_good (TTuple l) = forallb ty_good l.
Proof. reflexivity. Qed.

Definition vgood (v : value) : Prop := ty_good (type_of v) = true.

Theorem shipped_qint_ge2 : forallb (fun w => 2 <=? w)%nat shipped_qint = true.
Proof. vm_compute. reflexivity. Qed.
Theorem shipped_qfixed_ge2 : forallb (fun t => 2 <=? fst t + snd t)%nat shipped_qfixed = true.
Proof. vm_compute. reflexivity. Qed.

Lemma in_shipped_qint_ge2 w : existsb (Nat.eqb w) shipped_qint = true -> (2 <= w)%nat.
Proof.
  intros H. apply existsb_exists in H as (w' & Hin & E). apply Nat.eqb_eq in E. subst w'.
  pose proof shipped_qint_ge2 as P. rewrite forallb_forall in P. specialize (P _ Hin). now apply Nat.leb_le.
Qed.
Lemma in_shipped_qfixed_ge2 i f : In (i, f) shipped_qfixed -> (2 <= i + f)%nat.
Proof.
  intros Hin. pose proof shipped_qfixed_ge2 as P. rewrite forallb_forall in P. specialize (P _ Hin).
  now apply Nat.leb_le in P.
Qed.
Lemma is_shipped_qfixed_ge2 i f : is_shipped_qfixed i f = true -> (2 <= i + f)%nat.
Proof.
  unfold is_shipped_qfixed. intros H. apply existsb_exists in H as ([i' f'] & Hin & E). cbn [fst snd] in E.
  apply andb_true_iff in E as [E1 E2]. apply Nat.eqb_eq in E1, E2. subst. now apply in_shipped_qfixed_ge2.
Qed.

Lemma const_float_search_in ts x i f bits : const_float_search ts x = Some (i, f, bits) -> In (i, f) ts.
Proof.
  induction ts as [|[i0 f0] ts IH]; cbn [const_float_search]; [discriminate|].
  destruct (_ && _); [intros [= <- <- _]; now left|intros H; right; now apply IH].
Qed.

Lemma vgood_vi w n : vgood (VI w n) <-> (2 <= w)%nat.
Proof. unfold vgood. cbn [type_of ty_good ty_size]. apply Nat.leb_le. Qed.
Lemma vgood_vf i f n : vgood (VF i f n) <-> (2 <= i + f)%nat.
Proof. unfold vgood. cbn [type_of ty_good ty_size]. apply Nat.leb_le. Qed.

(* what binding a translated value to a name needs: its meaning (sem); the shape of its type (wf_res),
   so that decompose names its bits as translate_argument does (regroup_canon); and no sized component
   of one bit (vgood): a one-bit sized NAME reads back as a bare Symbol (to_exp_names_wf) *)
Definition repr (rho : nat -> bool) (r : tres) (v : value) : Prop := semw rho r v /\ vgood v.

Lemma vgood_type v t : type_of v = t -> ty_good t = true -> vgood v.
Proof. intros <-. exact (fun H => H). Qed.

Lemma repr_bool rho e b : beval rho e = b -> repr rho (TBool, L e) (VB b).
Proof. intros H. split; [now apply semw_bool|reflexivity]. Qed.

Lemma repr_list rho rs vs : Forall2 (repr rho) rs vs -> Forall2 (sem rho) rs vs /\ Forall vgood vs.
Proof. induction 1 as [|r v rs vs ((S & _) & Gv) _ [IH1 IH2]]; split; constructor; assumption. Qed.

Lemma vgood_vt vs : Forall vgood vs -> vgood (VT vs).
Proof.
  intros HF. unfold vgood. cbn [type_of]. rewrite ty_good_tuple.
  apply forallb_forall. intros t Ht. apply in_map_iff in Ht as (v & <- & Hv). rewrite Forall_forall in HF. now apply HF.
Qed.

(* int() of a Qfixed: its integer bits, the value divided by 2^f *)
Lemma qfixed_int_part_sem rho i f l : length l = (i + f)%nat ->
  semw rho (of_texp (TQint i, firstn i l)) (VI i (fxv rho i l / pw f)).
Proof.
  intros Ln. apply sem_qint_out; cbn [snd]; [reflexivity|rewrite firstn_length; lia|].
  rewrite fxv_split. replace (length l - i)%nat with f by lia.
  pose proof (bv_lt rho (rev (skipn i l))) as B. rewrite rev_length, skipn_length in B.
  replace (length l - i)%nat with f in B by lia. change (pw f) with (p2 f).
  rewrite N.mul_comm, N.div_add by apply p2_nz. now rewrite N.div_small.
Qed.

Lemma trans_int_sound rho r v r' v' :
  sem rho r v -> trans_int r = Some r' -> eval_int v = Some v' ->
  sem rho r' v' /\ (wf_res r -> wf_res r') /\ (vgood v -> vgood v').
Proof.
  intros Hs. pose proof (sem_type _ _ _ Hs) as T. destruct r as [t tr]. cbn [fst] in T. subst t.
  unfold trans_int. destruct v as [|w n|i f n| |]; cbn [fst snd type_of eval_int]; intros Ht He; try discriminate.
  - injection Ht as <-. injection He as <-. now repeat split.
  - injection He as <-. bind_inv Ht as l Hl.
    destruct (existsb (Nat.eqb (length (firstn i l))) shipped_qint) eqn:Sh; [|discriminate]. injection Ht as <-.
    assert (Htx : to_texp (TQfixed i f, tr) = Some (TQfixed i f, l)) by (unfold to_texp; cbn [fst snd]; now rewrite Hl).
    destruct (sem_VF _ _ _ _ _ _ Htx Hs) as (_ & Ln & E). cbn [snd] in Ln, E. subst n.
    assert (Lf : length (firstn i l) = i) by (rewrite firstn_length; lia).
    rewrite Lf in *. change (TQint i, of_list (firstn i l)) with (of_texp (TQint i, firstn i l)).
    pose proof (qfixed_int_part_sem rho i f l Ln) as S.
    split; [apply S|split; intros _; [apply S|now apply vgood_vi, in_shipped_qint_ge2]].
Qed.

Lemma qfixed_for_size_spec s t : qfixed_for_size s = Some t -> exists f, t = TQfixed s f.
Proof.
  unfold qfixed_for_size. destruct (find _ shipped_qfixed) as [[i f]|] eqn:E; [|discriminate].
  intros [= <-]. apply find_some in E as [_ E]. cbn [fst] in E. apply Nat.eqb_eq in E. subst. now exists f.
Qed.

(* float() of a Qint: w integer bits filled with f zero fraction bits, the value times 2^f *)
Lemma qint_as_qfixed_sem rho w f l : length l = w ->
  semw rho (of_texp (fill (TQfixed w f) (TQfixed w f, l))) (VF w f (bv rho l * pw f)).
Proof.
  intros Ln. apply semw_lift; [|discriminate]. apply sem_of_texp. rewrite fill_type, fill_bits. unfold bit_size. cbn [fst snd ty_size].
  assert (Ty : (if (w + f <=? length l)%nat then TQfixed w f else TQfixed w f) = TQfixed w f) by now destruct (w + f <=? length l)%nat.
  rewrite Ty. cbn [decode]. rewrite map_length, app_length, repeat_length, Ln.
  replace (w + (w + f - w))%nat with (w + f)%nat by lia. rewrite Nat.eqb_refl.
  do 2 f_equal. rewrite fix_val_map. replace (w + f - w)%nat with f by lia.
  rewrite fxv_split.
  rewrite app_length, repeat_length, Ln. replace (w + f - w)%nat with f by lia.
  rewrite skipn_app, Ln, Nat.sub_diag, skipn_all2 by lia. cbn [skipn app].
  rewrite firstn_app, Ln, Nat.sub_diag, firstn_all2 by lia. cbn [firstn]. rewrite app_nil_r.
  rewrite rev_repeat, bv_false. change (pw f) with (p2 f). lia.
Qed.

Lemma trans_float_sound rho r v r' v' :
  sem rho r v -> trans_float r = Some r' -> eval_float v = Some v' ->
  sem rho r' v' /\ (wf_res r -> wf_res r') /\ (vgood v -> vgood v').
Proof.
  intros Hs. pose proof (sem_type _ _ _ Hs) as T. destruct r as [t tr]. cbn [fst] in T. subst t.
  unfold trans_float. destruct v as [|w n|i f n| |]; cbn [fst snd type_of eval_float]; intros Ht He; try discriminate.
  - bind_inv Ht as l Hl. bind_inv Ht as tf Htf. injection Ht as <-.
    assert (Htx : to_texp (TQint w, tr) = Some (TQint w, l)) by (unfold to_texp; cbn [fst snd]; now rewrite Hl).
    destruct (sem_VI _ _ _ _ _ Htx Hs) as [[_ Ln] E]. cbn [snd] in Ln, E. subst n.
    rewrite Ln in Htf. rewrite Htf in He. destruct (qfixed_for_size_spec _ _ Htf) as (f & ->). injection He as <-.
    pose proof (qint_as_qfixed_sem rho w f l Ln) as S.
    split; [apply S|split; [intros _; apply S|intros Ga; apply vgood_vi in Ga; apply vgood_vf; lia]].
  - injection Ht as <-. injection He as <-. now repeat split.
Qed.

Lemma const_int_search_find ws n w bits : const_int_search ws n = Some (w, bits) ->
  find (fun w => n <? pw w) ws = Some w /\ bits = qint_const w n.
Proof.
  induction ws as [|w0 ws IH]; cbn [const_int_search find]; [discriminate|].
  unfold pw at 1. destruct (n <? 2 ^ N.of_nat w0); [intros [= <- <-]; now split|exact IH].
Qed.

(* an integer constant that translates takes the first of the widths 2, 4, .. 16 that holds it *)
Lemma const_int_some n te : const_int n = Some te ->
  exists w, const_width n = Some w /\ (2 <= w)%nat /\ n < pw w /\ te = (TQint w, map BConst (qint_const w n)).
Proof.
  unfold const_int, const_to_qtype_int. destruct (const_int_search const_widths n) as [[w bits]|] eqn:E; [|discriminate].
  intros [= <-]. apply const_int_search_find in E as [Ef ->]. exists w. split; [exact Ef|].
  apply find_some in Ef as [Hin Hlt]. apply N.ltb_lt in Hlt.
  split; [cbn [In] in Hin; repeat (destruct Hin as [<-|Hin]; [lia|]); destruct Hin|now split].
Qed.

Lemma sem_qint_const rho w n : (0 < w)%nat -> n < p2 w -> semw rho (of_texp (qint_const_e w n)) (VI w n).
Proof.
  intros Hw Hn. destruct (qint_const_e_spec w n Hw) as (T & W & _ & Hv). destruct (Hv rho) as [_ Hb].
  apply sem_qint_out; [exact T| |].
  - unfold wf_te in W. rewrite W, T. reflexivity.
  - rewrite Hb. now apply N.mod_small.
Qed.

Lemma const_float_search_bits ts x i f bits : const_float_search ts x = Some (i, f, bits) ->
  bits = qfixed_const i f x.
Proof.
  induction ts as [|[i0 f0] ts IH]; cbn [const_float_search]; [discriminate|].
  destruct (_ && _); [intros [= <- <- <-]; reflexivity|exact IH].
Qed.

Lemma sem_qfixed_const rho i f x :
  semw rho (of_texp (TQfixed i f, map BConst (qfixed_const i f x))) (VF i f (fix_val i (qfixed_const i f x))).
Proof.
  apply semw_lift; [|discriminate]. apply sem_of_texp. cbn [fst snd decode]. rewrite map_beval_const.
  unfold qfixed_const. rewrite qfixed_to_bool_length, Nat.eqb_refl. reflexivity.
Qed.

Lemma qchar_const_repr rho c : c < 256 ->
  repr rho (of_texp (TQchar, map BConst (qchar_const c))) (VC c).
Proof.
  intros Hc. split; [|reflexivity]. apply semw_lift; [|discriminate].
  apply sem_of_texp. cbn [fst snd decode]. rewrite map_beval_const.
  rewrite qchar_const_runtime by exact Hc. unfold qchar_to_bool.
  rewrite (bin_to_bool_list_py_bin 8 c) by exact Hc. rewrite nbits_length. cbn [Nat.eqb].
  now rewrite bits_val_nbits_small.
Qed.

Lemma const_char_repr rho cs te v : const_char cs = Some te ->
  match cs with [c] => if c <? 256 then Some (VC c) else None | _ => None end = Some v ->
  repr rho (of_texp te) v.
Proof.
  unfold const_char. destruct cs as [|c [|]]; try discriminate.
  destruct (N.ltb_spec c 256) as [Hc|]; [|discriminate]. intros [= <-] [= <-]. now apply qchar_const_repr.
Qed.

Lemma const_to_qtype_repr rho c te v : (forall b, c <> CBool b) ->
  const_to_qtype c = Some te -> eval_const c = Some v -> repr rho (of_texp te) v.
Proof.
  intros NB Ht He. destruct c as [b|z|neg x|cs|]; cbn [const_to_qtype eval_const] in *; try discriminate.
  - now destruct (NB b).
  - destruct (z <? 0)%Z; [discriminate|]. apply const_int_some in Ht as (w & Ew & Hw & Hlt & ->).
    rewrite Ew in He. injection He as <-.
    split; [apply (sem_qint_const rho w (Z.to_N z)); [lia|exact Hlt]|now apply vgood_vi].
  - destruct neg; [discriminate|]. unfold const_float in Ht.
    destruct (const_float_search shipped_qfixed x) as [[[i f] bits]|] eqn:E; [|discriminate].
    injection Ht as <-. injection He as <-. rewrite (const_float_search_bits _ _ _ _ _ E).
    split; [apply sem_qfixed_const|]. apply vgood_vf, in_shipped_qfixed_ge2. eapply const_float_search_in; eassumption.
  - exact (const_char_repr rho cs te v Ht He).
Qed.

Lemma trans_const_lift c r : trans_const c = Some r -> (forall b, c <> CBool b) ->
  lift (const_to_qtype c) = Some r.
Proof.
  destruct c as [b|z|neg x|cs|]; cbn [trans_const]; intros H N; try exact H.
  - now destruct (N b).
  - destruct (z <? 0)%Z; [discriminate|exact H].
  - destruct neg; [discriminate|exact H].
Qed.

Lemma trans_const_repr rho c r v : trans_const c = Some r -> eval_const c = Some v -> repr rho r v.
Proof.
  intros Ht He.
  assert (K : (forall b, c <> CBool b) -> repr rho r v).
  { intros NB. apply trans_const_lift, lift_some in Ht as (te & Ht & ->); [|exact NB].
    exact (const_to_qtype_repr rho c te v NB Ht He). }
  destruct c as [b|z|neg x|cs|]; try (apply K; discriminate).
  injection Ht as <-. injection He as <-. apply repr_bool. now destruct b.
Qed.

Lemma z_mod_to_N_lt z w : Z.to_N (z mod 2 ^ Z.of_nat w)%Z < p2 w.
Proof.
  assert (Hm : (0 <= z mod 2 ^ Z.of_nat w < 2 ^ Z.of_nat w)%Z) by (apply Z.mod_pos_bound; apply Z.pow_pos_nonneg; lia).
  unfold p2. apply N2Z.inj_lt. rewrite Z2N.id by lia. rewrite N2Z.inj_pow. rewrite nat_N_Z. cbn. lia.
Qed.

Lemma cast_const_repr rho t c te v : cast_const t c = Some te -> eval_cast t c = Some v -> repr rho (of_texp te) v.
Proof.
  unfold cast_const, eval_cast. destruct (known_type t) eqn:K; cbn [negb]; [|discriminate].
  intros Ht He. destruct t as [|w|i f| |l]; try discriminate.
  - destruct c as [b|z|neg x|cs|]; try discriminate. injection Ht as <-. injection He as <-.
    apply in_shipped_qint_ge2 in K. split; [apply sem_qint_const; [lia|apply z_mod_to_N_lt]|now apply vgood_vi].
  - apply is_shipped_qfixed_ge2, (vgood_vf i f 0) in K. destruct c as [b|z|neg x|cs|]; try discriminate.
    + destruct (z <? 0)%Z; [discriminate|]. injection Ht as <-. injection He as <-. split; [apply sem_qfixed_const|exact K].
    + destruct neg; [discriminate|]. injection Ht as <-. injection He as <-. split; [apply sem_qfixed_const|exact K].
  - destruct c as [b|z|neg x|cs|]; try discriminate. exact (const_char_repr rho cs te v Ht He).
Qed.

Section pexp_ind2.
  Variable P : pexp -> Prop.
  Hypotheses (Hname : forall x, P (EName x)) (Hsub : forall x p, P (ESub x p))
    (Hbool : forall op l, Forall P l -> P (EBoolOp op l))
    (Hun : forall op a, P a -> P (EUn op a))
    (Hif : forall c t f, P c -> P t -> P f -> P (EIf c t f))
    (Hconst : forall c, P (EConst c)) (Hctup : forall l, P (EConstTup l))
    (Htup : forall l, Forall P l -> P (ETuple l))
    (Hcmp : forall op a b, P a -> P b -> P (ECmp op a b))
    (Hbin : forall op a b, P a -> P b -> P (EBin op a b))
    (Hcast : forall t c, P (ECast t c))
    (Hint : forall a, P a -> P (EInt a)) (Hfloat : forall a, P a -> P (EFloat a))
    (Hraise : P ERaise).
  Fixpoint pexp_ind2 (e : pexp) : P e :=
    let go := fix go (l : list pexp) : Forall P l :=
      match l with [] => Forall_nil _ | x :: r => Forall_cons x (pexp_ind2 x) (go r) end in
    match e with
    | EName x => Hname x | ESub x p => Hsub x p
    | EBoolOp op l => Hbool op l (go l)
    | EUn op a => Hun op a (pexp_ind2 a)
    | EIf c t f => Hif c t f (pexp_ind2 c) (pexp_ind2 t) (pexp_ind2 f)
    | EConst c => Hconst c | EConstTup l => Hctup l
    | ETuple l => Htup l (go l)
    | ECmp op a b => Hcmp op a b (pexp_ind2 a) (pexp_ind2 b)
    | EBin op a b => Hbin op a b (pexp_ind2 a) (pexp_ind2 b)
    | ECast t c => Hcast t c
    | EInt a => Hint a (pexp_ind2 a) | EFloat a => Hfloat a (pexp_ind2 a)
    | ERaise => Hraise
    end.
End pexp_ind2.

Definition names_go (base : sname) := fix go (l : list ty) (k : nat) : list sname :=
  match l with
  | [] => []
  | x :: r => arg_names (base ++ [k]) x ++ go r (S k)
  end.
Lemma arg_names_tuple base l : arg_names base (TTuple l) = names_go base l 0.
Proof. reflexivity. Qed.

Lemma bit_names_length base n : length (bit_names base n) = n.
Proof. unfold bit_names. now rewrite map_length, seq_length. Qed.

Lemma arg_names_length : forall t base, length (arg_names base t) = ty_size t.
Proof.
  induction t as [|w|i f| |l IH] using ty_ind2; intros base; try apply bit_names_length; [reflexivity|].
  rewrite arg_names_tuple. cbn [ty_size]. generalize 0%nat.
  induction IH as [|x l Hx _ IHl]; intros k; cbn [names_go map]; [reflexivity|].
  rewrite list_sum_cons.
  now rewrite app_length, Hx, IHl.
Qed.

Lemma bits_val_testbit bs i : (i < length bs)%nat -> N.testbit (bits_val bs) (N.of_nat i) = nth i bs false.
Proof. intros H. rewrite <- (nbits_testbit (length bs) (bits_val bs) i H). now rewrite nbits_bits_val. Qed.

(* every bound type is ty_good: no sized component of fewer than 2 bits *)
Definition env_good (G : env) : Prop := forall x t bv, lookup G x = Some (t, bv) -> ty_good t = true.

Lemma to_exp_long num bv : (2 <= length bv)%nat ->
  to_exp num bv = Some (Nd (map (fun s => L (sym num s)) bv)).
Proof. destruct bv as [|a [|b r]]; cbn [length]; try lia. reflexivity. Qed.

Lemma sub_val_good : forall p v0 v, vgood v0 -> sub_val v0 p = Some v -> vgood v.
Proof.
  induction p as [|i q IH]; intros v0 v G0 H; cbn [sub_val] in H; [now injection H as <-|].
  destruct v0 as [b|w n| | |l]; try discriminate.
  - destruct (_ <? _)%nat; [|discriminate]. apply (IH (VB (N.testbit n (N.of_nat i))) v); [reflexivity|exact H].
  - destruct (nth_error l i) as [v'|] eqn:E; [|discriminate]. apply (IH v'); [|exact H].
    unfold vgood in G0. cbn [type_of] in G0. rewrite ty_good_tuple in G0.
    rewrite forallb_forall in G0. apply G0. apply in_map. eapply nth_error_In; eassumption.
Qed.

Lemma wf_syms num T names : T <> TBool -> wf_res (T, Nd (map (fun s => L (sym num s)) names)).
Proof. intros N. rewrite syms_of_list. now apply (wf_of_texp (T, map (sym num) names)). Qed.

(* a name of a ty_good type evaluates to a value shaped as the type (a one-bit sized name would be
   a bare Symbol) *)
Lemma to_exp_names_wf num x t tr : ty_good t = true -> to_exp num (arg_names [x] t) = Some tr -> wf_res (t, tr).
Proof.
  intros Ok Hx. pose proof (arg_names_length t [x]) as Ln. remember (arg_names [x] t) as names eqn:En.
  destruct t as [|w|i f| |l]; [subst names; injection Hx as <-; apply wf_bool| | | |exact I].
  all: rewrite to_exp_long in Hx by (rewrite Ln; apply Nat.leb_le, Ok); injection Hx as <-; apply wf_syms; discriminate.
Qed.

Lemma trans_sub_some num G x p r : trans_sub num G x p = Some r ->
  exists t bv t', lookup G x = Some (t, bv) /\ sub_type t p = Some t' /\
    r = (t', match t' with
             | TBool => L (sym num (x :: p))
             | _ => Nd (map (fun s => L (sym num s)) (arg_names (x :: p) t'))
             end).
Proof.
  unfold trans_sub. destruct p as [|i q]; [discriminate|]. destruct (lookup G x) as [[t bv]|]; [|discriminate].
  intros H. bind_inv H as t' Hty. exists t, bv, t'.
  split; [reflexivity|split; [exact Hty|]]. destruct t'; now injection H as <-.
Qed.

Section Sound.
  Variable num : sname -> nat.
  Variable rho : nat -> bool.
  Definition rbit (s : sname) : bool := rho (num s).

  Lemma map_beval_sym bv : map (beval rho) (map (sym num) bv) = map rbit bv.
  Proof. rewrite map_map. reflexivity. Qed.

  Lemma flat_syms bv : flat (Nd (map (fun s => L (sym num s)) bv)) = map (sym num) bv.
  Proof. cbn [flat]. induction bv as [|s bv IH]; cbn [map flat_map flat app]; [reflexivity|now rewrite IH]. Qed.

  (* the names of element i of a tuple carry the element's value *)
  Lemma decode_names_elt base : forall l k vs i ti vi,
    decode_list l (map rbit (names_go base l k)) = Some vs ->
    nth_error l i = Some ti -> nth_error vs i = Some vi ->
    decode ti (map rbit (arg_names (base ++ [k + i]%nat) ti)) = Some vi.
  Proof.
    induction l as [|x l IH]; intros k vs i ti vi H Hi Hv; [destruct i; discriminate|].
    cbn [names_go decode_list] in H. rewrite map_app in H.
    rewrite firstn_app_exact in H by (now rewrite map_length, arg_names_length).
    rewrite skipn_app_exact in H by (now rewrite map_length, arg_names_length).
    destruct (decode x (map rbit (arg_names (base ++ [k]) x))) as [a|] eqn:Ea; [|discriminate].
    destruct (decode_list l (map rbit (names_go base l (S k)))) as [b|] eqn:Eb; [|discriminate].
    injection H as <-. destruct i as [|i]; cbn [nth_error] in Hi, Hv.
    - injection Hi as <-. injection Hv as <-. now rewrite Nat.add_0_r.
    - replace (k + S i)%nat with (S k + i)%nat by lia. eapply IH; eassumption.
  Qed.

  Lemma sub_walk : forall p t base v0 t' v,
    decode t (map rbit (arg_names base t)) = Some v0 ->
    sub_type t p = Some t' -> sub_val v0 p = Some v ->
    decode t' (map rbit (arg_names (base ++ p) t')) = Some v.
  Proof.
    induction p as [|i q IH]; intros t base v0 t' v Hd Ht Hv.
    - cbn in Ht, Hv. injection Ht as <-. injection Hv as <-. now rewrite app_nil_r.
    - cbn [sub_type] in Ht. destruct t as [|w|i0 f0| |l].
      + discriminate.
      + apply decode_qint in Hd as [Ln ->]. cbn [sub_val] in Hv.
        cbn [ty_size] in Ht. destruct (Nat.ltb_spec i w) as [Hi|]; [|discriminate].
        destruct q as [|j q]; [|discriminate]. cbn in Ht, Hv. injection Ht as <-. injection Hv as <-.
        cbn [arg_names map decode]. do 2 f_equal.
        rewrite bits_val_testbit by (rewrite !map_length, seq_length; exact Hi).
        rewrite map_map.
        rewrite (nth_indep _ false (rbit (base ++ [0%nat]))) by (rewrite map_length, seq_length; exact Hi).
        rewrite (map_nth (fun x => rbit (base ++ [x])) (seq 0 w) 0%nat i), seq_nth by exact Hi. reflexivity.
      + apply decode_qfixed in Hd as [_ ->]. discriminate.
      + apply decode_qchar in Hd as [_ ->]. discriminate.
      + rewrite decode_tuple in Hd. apply option_map_some in Hd as (vs & Hd & ->).
        destruct (nth_error l i) as [ti|] eqn:Ei; [|discriminate].
        cbn [sub_val] in Hv. destruct (nth_error vs i) as [vi|] eqn:Ev; [|discriminate].
        rewrite arg_names_tuple in Hd.
        pose proof (decode_names_elt base l 0 vs i ti vi Hd Ei Ev) as He. cbn [Nat.add] in He.
        replace (base ++ i :: q) with ((base ++ [i]) ++ q) by (now rewrite <- app_assoc).
        eapply IH; eassumption.
  Qed.

  Definition env_ok (G : env) (V : venv) : Prop :=
    forall x t bv, lookup G x = Some (t, bv) ->
      exists v, lookup V x = Some v /\ decode t (map rbit bv) = Some v.
  Definition env_canon (G : env) : Prop :=
    forall x t bv, lookup G x = Some (t, bv) -> bv = arg_names [x] t.

  Lemma trans_name_sound G V x r v : env_ok G V ->
    trans_exp num G (EName x) = Some r -> lookup V x = Some v ->
    sem rho r v /\ (env_canon G -> env_good G -> wf_res r /\ vgood v).
  Proof.
    intros Hok Ht Hv. cbn [trans_exp] in Ht. destruct (lookup G x) as [[t bv]|] eqn:E; [|discriminate].
    destruct (Hok _ _ _ E) as (v' & Hv' & Hd). rewrite Hv in Hv'. injection Hv' as <-.
    apply option_map_some in Ht as (tr & Hx & ->). split.
    - apply sem_pair.
      assert (F : map (beval rho) (flat tr) = map rbit bv); [|now rewrite F].
      unfold to_exp in Hx. destruct bv as [|s [|s' bv]]; [discriminate| |]; injection Hx as <-.
      + reflexivity.
      + rewrite <- (map_beval_sym (s :: s' :: bv)), <- (flat_syms (s :: s' :: bv)). reflexivity.
    - intros Hcan Hgood. rewrite (Hcan _ _ _ E) in Hx.
      split; [exact (to_exp_names_wf num x t tr (Hgood _ _ _ E) Hx)|].
      exact (vgood_type v t (proj1 (decode_type _ _ _ Hd)) (Hgood _ _ _ E)).
  Qed.

  Lemma trans_sub_sound G V x p r v0 v : env_ok G V -> env_canon G ->
    trans_sub num G x p = Some r -> lookup V x = Some v0 -> sub_val v0 p = Some v ->
    semw rho r v /\ (env_good G -> vgood v).
  Proof.
    intros Hok Hcan Ht Hv0 Hv. destruct (trans_sub_some _ _ _ _ _ Ht) as (t & bv & t' & E & Hty & ->).
    destruct (Hok _ _ _ E) as (v' & Hv' & Hd). rewrite Hv0 in Hv'. injection Hv' as <-.
    split; [split|].
    - rewrite (Hcan _ _ _ E) in Hd. pose proof (sub_walk p t [x] v0 t' v Hd Hty Hv) as Hw.
      apply sem_pair.
      assert (F : flat (match t' with
                        | TBool => L (sym num (x :: p))
                        | _ => Nd (map (fun s => L (sym num s)) (arg_names (x :: p) t'))
                        end) = map (sym num) (arg_names (x :: p) t'))
        by (destruct t'; [reflexivity|apply flat_syms..]).
      rewrite F, map_beval_sym. exact Hw.
    - destruct t'; [apply wf_bool|apply wf_syms; discriminate..].
    - intros Hgood. exact (sub_val_good p v0 v (vgood_type v0 t (proj1 (decode_type _ _ _ Hd)) (Hgood _ _ _ E)) Hv).
  Qed.

  Lemma tuple_sound rs vs : Forall2 (sem rho) rs vs ->
    sem rho (TTuple (map fst rs), Nd (map snd rs)) (VT vs).
  Proof.
    intros H. apply sem_pair. cbn [flat]. rewrite decode_tuple.
    assert (G : decode_list (map fst rs) (map (beval rho) (flat_map flat (map snd rs))) = Some vs); [|now rewrite G].
    induction H as [|r v rs vs Hs _ IH]; [reflexivity|].
    cbn [map flat_map decode_list]. rewrite map_app.
    destruct (decode_type _ _ _ Hs) as [_ Ln].
    rewrite firstn_app_exact by exact Ln. rewrite skipn_app_exact by exact Ln.
    unfold sem, den in Hs. now rewrite Hs, IH.
  Qed.

  Lemma tuple_repr rs vs : Forall2 (repr rho) rs vs ->
    repr rho (TTuple (map fst rs), Nd (map snd rs)) (VT vs).
  Proof.
    intros H. destruct (repr_list rho rs vs H) as [HS HG].
    split; [split; [exact (tuple_sound rs vs HS)|exact I]|exact (vgood_vt vs HG)].
  Qed.
End Sound.

Definition trans_list (num : sname -> nat) (G : env) := fix go (l : list pexp) : option (list tres) :=
  match l with
  | [] => Some []
  | x :: r => match trans_exp num G x, go r with Some a, Some b => Some (a :: b) | _, _ => None end
  end.
Definition eval_list (V : venv) := fix go (l : list pexp) : option (list value) :=
  match l with
  | [] => Some []
  | x :: r => match eval_exp V x, go r with Some a, Some b => Some (a :: b) | _, _ => None end
  end.

Lemma trans_exp_boolop num G op l :
  trans_exp num G (EBoolOp op l) = obind (trans_list num G l) (trans_boolop op).
Proof. reflexivity. Qed.
Lemma eval_exp_boolop V op l : eval_exp V (EBoolOp op l) = obind (eval_list V l) (eval_boolop op).
Proof. reflexivity. Qed.
Lemma trans_exp_tuple num G l :
  trans_exp num G (ETuple l) = option_map (fun rs => (TTuple (map fst rs), Nd (map snd rs))) (trans_list num G l).
Proof. reflexivity. Qed.
Lemma eval_exp_tuple V l : eval_exp V (ETuple l) = option_map VT (eval_list V l).
Proof. reflexivity. Qed.

Lemma trans_const_elts_cons c l es : trans_const_elts (c :: l) = Some es ->
  exists a es', const_to_qtype c = Some a /\ trans_const_elts l = Some es' /\ es = a :: es'.
Proof.
  cbn [trans_const_elts]. destruct (match c with CInt z => (z <? 0)%Z | _ => false end); [discriminate|].
  apply some2.
Qed.

Lemma eval_const_elts_cons c l vs : eval_const_elts (c :: l) = Some vs ->
  (forall b, c <> CBool b) /\
  exists v vs', eval_const c = Some v /\ eval_const_elts l = Some vs' /\ vs = v :: vs'.
Proof.
  intros H. split; [intros b ->; discriminate|].
  destruct c; [discriminate|apply some2 in H..]; exact H.
Qed.

Lemma trans_const_tup_repr rho l r vs :
  trans_const_tup l = Some r -> eval_const_elts l = Some vs -> repr rho r (VT vs).
Proof.
  intros Ht Hv. apply option_map_some in Ht as (es & Hes & ->).
  assert (H : Forall2 (repr rho) (map of_texp es) vs).
  { revert es vs Hes Hv. induction l as [|c l IH]; intros es vs Ht Hv.
    - injection Ht as <-. injection Hv as <-. constructor.
    - apply trans_const_elts_cons in Ht as (a & es' & Ha & Ht & ->).
      apply eval_const_elts_cons in Hv as (NB & v & vs' & Hv & He & ->).
      constructor; [exact (const_to_qtype_repr rho c a v NB Ha Hv)|exact (IH _ _ Ht He)]. }
  apply tuple_repr in H. rewrite !map_map in H. exact H.
Qed.

Lemma repr_of_bool rho r v : (exists e, r = (TBool, L e) /\ v = VB (beval rho e)) -> repr rho r v.
Proof. intros (e & -> & ->). now apply repr_bool. Qed.

(* The joint induction over the translator and the evaluator on one expression: a property of the
   pairs (translated value, value) that every operation of the language preserves holds of every
   expression both accept.  All statements about such pairs below are instances. *)
Section TransEval.
  Variables (num : sname -> nat) (G : env) (V : venv) (P : tres -> value -> Prop).
  Hypotheses
    (Pname : forall x r v, trans_exp num G (EName x) = Some r -> lookup V x = Some v -> P r v)
    (Psub : forall x p r v0 v,
        trans_sub num G x p = Some r -> lookup V x = Some v0 -> sub_val v0 p = Some v -> P r v)
    (Pboolop : forall op rs vs r v,
        Forall2 P rs vs -> trans_boolop op rs = Some r -> eval_boolop op vs = Some v -> P r v)
    (Pun : forall op ra va r v, P ra va -> trans_un op ra = Some r -> eval_un op va = Some v -> P r v)
    (Pif : forall rc rt rf vc vt vf r v, P rc vc -> P rt vt -> P rf vf ->
        trans_if rc rt rf = Some r -> eval_if vc vt vf = Some v -> P r v)
    (Pconst : forall c r v, trans_const c = Some r -> eval_const c = Some v -> P r v)
    (Pctup : forall l r vs, trans_const_tup l = Some r -> eval_const_elts l = Some vs -> P r (VT vs))
    (Ptuple : forall rs vs, Forall2 P rs vs -> P (TTuple (map fst rs), Nd (map snd rs)) (VT vs))
    (Pcmp : forall op ra rb va vb r v, P ra va -> P rb vb ->
        trans_cmp op ra rb = Some r -> eval_cmp op va vb = Some v -> P r v)
    (Pbin : forall op sh ra rb va vb r v, P ra va -> P rb vb ->
        trans_bin op sh ra rb = Some r -> eval_bin op sh va vb = Some v -> P r v)
    (Pcast : forall t c te v, cast_const t c = Some te -> eval_cast t c = Some v -> P (of_texp te) v)
    (Pint : forall ra va r v, P ra va -> trans_int ra = Some r -> eval_int va = Some v -> P r v)
    (Pfloat : forall ra va r v, P ra va -> trans_float ra = Some r -> eval_float va = Some v -> P r v).

  Let holds (e : pexp) : Prop :=
    forall r v, trans_exp num G e = Some r -> eval_exp V e = Some v -> P r v.

  Lemma trans_eval_list l : Forall holds l ->
    forall rs vs, trans_list num G l = Some rs -> eval_list V l = Some vs -> Forall2 P rs vs.
  Proof.
    induction 1 as [|e l He _ IH]; intros rs vs Ht Hv; cbn [trans_list eval_list] in Ht, Hv.
    - injection Ht as <-. injection Hv as <-. constructor.
    - apply some2 in Ht as (a & b & Ea & Eb & ->). apply some2 in Hv as (va & vb & Eva & Evb & ->).
      constructor; [now apply He|now apply IH].
  Qed.

  Theorem trans_eval_ind : forall e, holds e.
  Proof.
    induction e as [x|x p|op l IH|op a IHa|c t f IHc IHt IHf|c|l|l IH|op a b IHa IHb|op a b IHa IHb|t c|a IHa|a IHa|]
      using pexp_ind2; intros r v.
    - exact (Pname x r v).
    - cbn [trans_exp eval_exp]. intros Ht Hv.
      destruct p as [|i q]; [discriminate|]. bind_inv Hv as v0 Hv0.
      exact (Psub x _ r v0 v Ht Hv0 Hv).
    - rewrite trans_exp_boolop, eval_exp_boolop. intros Ht Hv.
      bind_inv Ht as rs Hrs. bind_inv Hv as vs Hvs.
      exact (Pboolop op rs vs r v (trans_eval_list l IH rs vs Hrs Hvs) Ht Hv).
    - cbn [trans_exp eval_exp]. intros Ht Hv.
      bind_inv Ht as ra Hra. bind_inv Hv as va Hva.
      exact (Pun op ra va r v (IHa _ _ Hra Hva) Ht Hv).
    - cbn [trans_exp eval_exp]. intros Ht Hv.
      bind_inv Ht as rc Hrc. bind_inv Ht as rt Hrt.
      bind_inv Ht as rf Hrf.
      bind_inv Hv as vc Hvc. bind_inv Hv as vt Hvt.
      bind_inv Hv as vf Hvf.
      exact (Pif rc rt rf vc vt vf r v (IHc _ _ Hrc Hvc) (IHt _ _ Hrt Hvt) (IHf _ _ Hrf Hvf) Ht Hv).
    - exact (Pconst c r v).
    - cbn [eval_exp]. intros Ht Hv. apply option_map_some in Hv as (vs & Hvs & ->). exact (Pctup l r vs Ht Hvs).
    - rewrite trans_exp_tuple, eval_exp_tuple. intros Ht Hv.
      apply option_map_some in Ht as (rs & Hrs & ->). apply option_map_some in Hv as (vs & Hvs & ->).
      exact (Ptuple rs vs (trans_eval_list l IH rs vs Hrs Hvs)).
    - cbn [trans_exp eval_exp]. intros Ht Hv.
      bind_inv Ht as ra Hra. bind_inv Ht as rb Hrb.
      bind_inv Hv as va Hva. bind_inv Hv as vb Hvb.
      exact (Pcmp op ra rb va vb r v (IHa _ _ Hra Hva) (IHb _ _ Hrb Hvb) Ht Hv).
    - cbn [trans_exp eval_exp]. intros Ht Hv.
      bind_inv Ht as ra Hra. bind_inv Ht as rb Hrb.
      bind_inv Hv as va Hva. bind_inv Hv as vb Hvb.
      exact (Pbin op _ ra rb va vb r v (IHa _ _ Hra Hva) (IHb _ _ Hrb Hvb) Ht Hv).
    - cbn [trans_exp]. intros Ht Hv. apply lift_some in Ht as (te & Ht & ->). exact (Pcast t c te v Ht Hv).
    - cbn [trans_exp eval_exp]. intros Ht Hv.
      bind_inv Ht as ra Hra. bind_inv Hv as va Hva.
      exact (Pint ra va r v (IHa _ _ Hra Hva) Ht Hv).
    - cbn [trans_exp eval_exp]. intros Ht Hv.
      bind_inv Ht as ra Hra. bind_inv Hv as va Hva.
      exact (Pfloat ra va r v (IHa _ _ Hra Hva) Ht Hv).
    - discriminate.
  Qed.
End TransEval.

(* every expression of the language, every environment, every assignment *)
Theorem trans_exp_sound num rho G V e r v :
  env_ok num rho G V -> env_canon G ->
  trans_exp num G e = Some r -> eval_exp V e = Some v -> den rho r = Some v.
Proof.
  intros Hok Hcan. revert e r v. apply (trans_eval_ind num G V (sem rho)).
  - intros. eapply proj1, trans_name_sound; eassumption.
  - intros. eapply proj1, proj1, trans_sub_sound; eassumption.
  - intros. eapply proj1, proj1, repr_of_bool, trans_boolop_sound; eassumption.
  - intros. eapply proj1, trans_un_sound; eassumption.
  - intros rc rt rf vc vt vf r v Sc St Sf H1 H2. exact (proj1 (trans_if_sound rho rc rt rf vc vt vf r v Sc St Sf H1 H2)).
  - intros. eapply proj1, proj1, trans_const_repr; eassumption.
  - intros. eapply proj1, proj1, trans_const_tup_repr; eassumption.
  - exact (tuple_sound rho).
  - intros op ra rb va vb r v Sa Sb H1 H2. exact (proj1 (proj1 (repr_of_bool rho r v (trans_cmp_sound rho op ra rb va vb r v Sa Sb H1 H2)))).
  - intros op sh ra rb va vb r v Sa Sb H1 H2. exact (proj1 (trans_bin_sound rho op sh ra rb va vb r v Sa Sb H1 H2)).
  - intros. eapply proj1, proj1, cast_const_repr; eassumption.
  - intros. eapply proj1, trans_int_sound; eassumption.
  - intros. eapply proj1, trans_float_sound; eassumption.
Qed.

Section vtree_ind2.
  Variable P : vtree -> Prop.
  Hypotheses (Hl : forall e, P (L e)) (Hn : forall l, Forall P l -> P (Nd l)).
  Fixpoint vtree_ind2 (v : vtree) : P v :=
    match v with
    | L e => Hl e
    | Nd l => Hn l ((fix go (l : list vtree) : Forall P l :=
                       match l with [] => Forall_nil _ | x :: r => Forall_cons x (vtree_ind2 x) (go r) end) l)
    end.
End vtree_ind2.

Definition decompose_go (base : sname) := fix go (l : list vtree) (k : nat) : list (sname * bexp) :=
  match l with
  | [] => []
  | x :: r => decompose (base ++ [k]) x ++ go r (S k)
  end.
Lemma decompose_nd base l : decompose base (Nd l) = decompose_go base l 0.
Proof. reflexivity. Qed.

Lemma decompose_snd : forall v base, map snd (decompose base v) = flat v.
Proof.
  induction v as [e|l IH] using vtree_ind2; intros base; [reflexivity|].
  rewrite decompose_nd. cbn [flat]. generalize 0%nat.
  induction IH as [|x l Hx _ IHl]; intros k; cbn [decompose_go flat_map]; [reflexivity|].
  now rewrite map_app, Hx, IHl.
Qed.

Definition regroup_go := fix go (l : list ty) (bits : list bexp) : list vtree :=
  match l with
  | [] => []
  | a :: r => regroup a (firstn (ty_size a) bits) :: go r (skipn (ty_size a) bits)
  end.
Lemma regroup_tuple l bits : regroup (TTuple l) bits = Nd (regroup_go l bits).
Proof. reflexivity. Qed.

Lemma regroup_flat : forall t bits, length bits = ty_size t -> flat (regroup t bits) = bits.
Proof.
  induction t as [|w|i f| |l IH] using ty_ind2; intros bits Hl; try apply flat_of_list.
  - destruct bits as [|b [|]]; try discriminate. reflexivity.
  - rewrite regroup_tuple. cbn [flat]. cbn [ty_size] in Hl. revert bits Hl.
    induction IH as [|x l Hx _ IHl]; intros bits Hl; cbn [regroup_go flat_map map] in *.
    + now apply length_zero_iff_nil in Hl.
    + rewrite list_sum_cons in Hl.
      rewrite Hx by (rewrite firstn_length; lia). rewrite IHl by (rewrite skipn_length; lia).
      apply firstn_skipn.
Qed.

Lemma regroup_value_type r : fst (regroup_value r) = fst r.
Proof.
  unfold regroup_value. destruct r as [t tr]. cbn [fst snd].
  destruct t as [| | | |[|a l]]; try reflexivity.
  now destruct (Nat.eqb _ _).
Qed.

Lemma regroup_value_sem rho r v : sem rho r v -> sem rho (regroup_value r) v.
Proof.
  intros H. unfold regroup_value. destruct r as [t tr]. cbn [fst snd].
  destruct t as [| | | |[|a l]]; try exact H.
  unfold sem, den in *. cbn [fst snd] in *.
  destruct (Nat.eqb_spec (ty_size (TTuple (a :: l))) (length (flat tr))) as [Ln|Ln]; cbn [fst snd].
  - now rewrite regroup_flat by congruence.
  - now rewrite flat_of_list.
Qed.

Lemma decompose_go_leaves base l : forall k,
  map fst (decompose_go base (map L l) k) = map (fun i => base ++ [i]) (seq k (length l)).
Proof.
  induction l as [|e l IH]; intros k; cbn [map decompose_go decompose app length seq]; [reflexivity|].
  now rewrite IH.
Qed.

Lemma decompose_of_list base l : map fst (decompose base (of_list l)) = bit_names base (length l).
Proof. unfold of_list. rewrite decompose_nd. apply decompose_go_leaves. Qed.

Lemma decompose_regroup : forall t base bits, length bits = ty_size t ->
  map fst (decompose base (regroup t bits)) = arg_names base t.
Proof.
  induction t as [|w|i f| |l IH] using ty_ind2; intros base bits Hl;
    try (cbn [regroup arg_names]; rewrite decompose_of_list; now rewrite Hl).
  - destruct bits as [|b [|]]; try discriminate. reflexivity.
  - rewrite regroup_tuple, decompose_nd, arg_names_tuple. cbn [ty_size] in Hl. generalize 0%nat. revert bits Hl.
    induction IH as [|x l Hx _ IHl]; intros bits Hl k; cbn [regroup_go decompose_go names_go map] in *; [reflexivity|].
    rewrite list_sum_cons in Hl.
    rewrite map_app, Hx by (rewrite firstn_length; lia). f_equal. apply IHl. rewrite skipn_length. lia.
Qed.

(* coerce_ret leaves a value of the declared type as it is; the only other case is an integer of
   another width *)
Lemma coerce_ret_cases rt v v' : coerce_ret rt v = Some v' ->
  (type_of v = rt /\ v' = v) \/
  exists w n r, v = VI w n /\ rt = TQint r /\
    ((w < r)%nat /\ v' = VI r n \/ (r < w)%nat /\ v' = VI r (n mod pw r)).
Proof.
  assert (Same : (if ty_eq (type_of v) rt then Some v else None) = Some v' -> type_of v = rt /\ v' = v).
  { destruct (ty_eq _ _) eqn:E; [|discriminate]. intros [= <-]. split; [now apply ty_eq_true|reflexivity]. }
  destruct v as [b|w n|i f n|c|l]; try (intros H; left; exact (Same H)).
  destruct rt as [|r|i f| |l]; try (intros H; left; exact (Same H)).
  cbn [coerce_ret]. destruct (Nat.ltb_spec w r) as [W|W]; [intros [= <-]; right; exists w, n, r; auto 6|].
  destruct (Nat.ltb_spec r w) as [W'|W']; intros [= <-]; [right; exists w, n, r; auto 6|].
  left. split; [cbn [type_of]; f_equal; lia|reflexivity].
Qed.

Lemma ret_coerce_semw rho rt r v r' v' :
  sem rho r v -> ret_coerce rt r = Some r' -> coerce_ret rt v = Some v' ->
  sem rho r' v' /\ (wf_res r -> wf_res r') /\ fst r' = rt.
Proof.
  intros Hs Ht Hv. pose proof (sem_type _ _ _ Hs) as T. unfold ret_coerce in Ht.
  destruct (coerce_ret_cases _ _ _ Hv) as [[E ->]|(w & n & r0 & -> & -> & C)].
  - rewrite T in E. rewrite E, Nat.ltb_irrefl, !andb_false_r, ty_eq_refl in Ht. injection Ht as <-. now repeat split.
  - cbn [type_of] in T. rewrite <- T in Ht. unfold bit_size in Ht. cbn [is_qtype andb ty_size] in Ht.
    destruct C as [[W ->]|[W ->]].
    + rewrite (proj2 (Nat.ltb_lt w r0) W) in Ht. apply option_map_some in Ht as (te & Hte & ->).
      destruct (sem_VI _ _ _ _ _ Hte Hs) as [G ->]. destruct (fill_qint_sem rho te w r0 G ltac:(lia)) as [Ty S].
      exact (conj (proj1 S) (conj (fun _ => proj2 S) Ty)).
    + rewrite (proj2 (Nat.ltb_ge w r0)), (proj2 (Nat.ltb_lt r0 w) W) in Ht by lia.
      apply option_map_some in Ht as (te & Hte & ->).
      destruct (sem_VI _ _ _ _ _ Hte Hs) as [G ->]. destruct (crop_qint_sem rho te w r0 G ltac:(lia)) as [Ty S].
      exact (conj (proj1 S) (conj (fun _ => proj2 S) Ty)).
Qed.

Lemma run_defs_seq : forall ds rho, seq_ok ds = true -> nodupb (map fst ds) = true ->
  (forall j, ~ In j (map fst ds) -> run_defs rho ds j = rho j)
  /\ Forall (fun d => run_defs rho ds (fst d) = beval rho (snd d)) ds.
Proof.
  induction ds as [|[s e] ds IH]; intros rho Hs Hn; [split; [reflexivity|constructor]|].
  cbn [seq_ok] in Hs. apply andb_true_iff in Hs as [Hs1 Hs2].
  cbn [map nodupb fst] in Hn. apply andb_true_iff in Hn as [Hn1 Hn2].
  rewrite run_defs_cons. set (rho1 := fun j => if Nat.eqb j s then beval rho e else rho j).
  destruct (IH rho1 Hs2 Hn2) as [A B].
  assert (Hns : ~ In s (map fst ds)).
  { intros Hin. apply negb_true_iff in Hn1. assert (existsb (Nat.eqb s) (map fst ds) = true); [|congruence].
    apply existsb_exists. exists s. split; [exact Hin|apply Nat.eqb_refl]. }
  split.
  - intros j Hj. cbn [map fst In] in Hj. rewrite A by tauto. unfold rho1.
    destruct (Nat.eqb_spec j s); [subst; tauto|reflexivity].
  - constructor.
    + cbn [fst snd]. rewrite A by exact Hns. unfold rho1. now rewrite Nat.eqb_refl.
    + rewrite Forall_forall in B |- *. intros d Hd. rewrite (B d Hd).
      rewrite forallb_forall in Hs1. specialize (Hs1 d Hd). apply negb_true_iff in Hs1.
      unfold beval. apply (geval_ext bool_alg). intros i Hi. unfold rho1.
      destruct (Nat.eqb_spec i s) as [->|]; [|reflexivity].
      assert (existsb (Nat.eqb s) (bsyms (snd d)) = true); [|congruence].
      apply existsb_exists. exists s. split; [exact Hi|apply Nat.eqb_refl].
Qed.

Lemma lookup_bind {A} (G : list (ident * A)) x b y :
  lookup (bind G x b) y = if Nat.eqb y x then Some b else lookup G y.
Proof.
  unfold bind, unbind. induction G as [|[z c] G IH]; cbn [filter app lookup fst].
  - rewrite (Nat.eqb_sym x y). reflexivity.
  - destruct (Nat.eqb_spec z x) as [Hz|Hz]; cbn [negb].
    + rewrite IH. subst z. destruct (Nat.eqb_spec y x) as [Hy|Hy]; [reflexivity|].
      destruct (Nat.eqb_spec x y); [congruence|reflexivity].
    + cbn [app lookup]. destruct (Nat.eqb_spec z y) as [Hzy|Hzy].
      * subst z. destruct (Nat.eqb_spec y x); [congruence|reflexivity].
      * exact IH.
Qed.

Lemma lookup_in {A} (G : list (ident * A)) x b : lookup G x = Some b -> In (x, b) G.
Proof.
  induction G as [|[z c] G IH]; cbn [lookup]; [discriminate|].
  destruct (Nat.eqb_spec z x) as [->|]; [intros [= ->]; now left|intros H; right; now apply IH].
Qed.

Lemma snames_eqb_true : forall a b, snames_eqb a b = true -> a = b.
Proof.
  assert (S : forall a b, sname_eqb a b = true -> a = b).
  { induction a as [|x a IH]; intros [|y b] H; cbn in H; try discriminate; [reflexivity|].
    apply andb_true_iff in H as [H1 H2]. apply Nat.eqb_eq in H1. f_equal; [exact H1|now apply IH]. }
  induction a as [|x a IH]; intros [|y b] H; cbn in H; try discriminate; [reflexivity|].
  apply andb_true_iff in H as [H1 H2]. f_equal; [now apply S|now apply IH].
Qed.

Lemma decompose_flat_nil : forall v base, flat v = [] -> decompose base v = [].
Proof.
  induction v as [e|l IH] using vtree_ind2; intros base H; [discriminate|].
  rewrite decompose_nd. cbn [flat] in H. generalize 0%nat.
  induction IH as [|x l Hx _ IHl]; intros k; cbn [decompose_go flat_map] in *; [reflexivity|].
  apply app_eq_nil in H as [H1 H2]. now rewrite (Hx _ H1), (IHl H2).
Qed.

(* after the regrouping, decompose_to_symbols gives the names of the type, for EVERY r with a meaning
   and the shape of its type *)
Lemma regroup_canon rho x r v : sem rho r v -> wf_res r ->
  map fst (decompose [x] (snd (regroup_value r))) = arg_names [x] (fst r).
Proof.
  intros Hs W. destruct (decode_type _ _ _ Hs) as [_ Ln]. rewrite map_length in Ln.
  unfold regroup_value, wf_res in *. destruct r as [t tr]. cbn [fst snd] in *.
  destruct t as [|w|i f| |[|a l]].
  - destruct W as (e & ->). reflexivity.
  - destruct W as (l & ->). rewrite flat_of_list in Ln. cbn [snd]. rewrite decompose_of_list. now rewrite Ln.
  - destruct W as (l & ->). rewrite flat_of_list in Ln. cbn [snd]. rewrite decompose_of_list. now rewrite Ln.
  - destruct W as (l & ->). rewrite flat_of_list in Ln. cbn [snd]. rewrite decompose_of_list. now rewrite Ln.
  - cbn [snd]. change (ty_size (TTuple [])) with 0%nat in Ln. apply length_zero_iff_nil in Ln.
    now rewrite (decompose_flat_nil _ _ Ln).
  - rewrite Ln, Nat.eqb_refl. cbn [snd]. now apply decompose_regroup.
Qed.

Lemma eval_if_good vc vt vf v : vgood vt -> vgood vf -> eval_if vc vt vf = Some v -> vgood v.
Proof.
  intros Gt Gf. destruct vc as [b| | | |]; try discriminate. cbn [eval_if].
  destruct (ty_eq _ _); [intros [= <-]; now destruct b|].
  destruct vt as [|wt x| | |]; try discriminate. destruct vf as [|wf y| | |]; try discriminate.
  intros [= <-]. apply vgood_vi. apply vgood_vi in Gt. lia.
Qed.

Lemma mul_sizing_ge2 k : (2 <= mul_sizing k)%nat.
Proof. unfold mul_sizing. repeat (destruct (_ <=? _)%nat; [lia|]). lia. Qed.

Lemma eval_bin_good op sh a b v : vgood a -> vgood b -> eval_bin op sh a b = Some v -> vgood v.
Proof.
  intros Ga Gb.
  destruct a as [p|wl x|i1 f1 x| |], b as [q|wr y|i2 f2 y| |]; cbn [eval_bin]; try discriminate.
  - destruct op; try discriminate; now intros [= <-].
  - apply vgood_vi in Ga. apply vgood_vi in Gb.
    destruct op; try discriminate; try (intros [= <-]; apply vgood_vi; lia).
    + destruct (_ && _); [|discriminate]. intros [= <-]. apply vgood_vi. apply mul_sizing_ge2.
    + destruct (_ && _); [|discriminate]. intros [= <-]. apply vgood_vi. lia.
    + destruct sh as [[k|]|]; try discriminate. intros [= <-]. now apply vgood_vi.
    + destruct sh as [[k|]|]; try discriminate. intros [= <-]. now apply vgood_vi.
  - apply vgood_vf in Gb. destruct op; try discriminate. intros [= <-]. now apply vgood_vf.
  - apply vgood_vf in Ga. destruct op; try discriminate. intros [= <-]. now apply vgood_vf.
  - apply vgood_vf in Ga. apply vgood_vf in Gb.
    destruct (fix_align i1 f1 i2 f2) as [[i f]|] eqn:E; [|discriminate].
    apply fix_align_spec in E as (_ & -> & ->).
    destruct op; try discriminate; intros [= <-]; apply vgood_vf; lia.
Qed.

Section Repr.
  Variable num : sname -> nat.
  Variable rho : nat -> bool.
  Variables (G : env) (V : venv).
  Hypothesis Hok : env_ok num rho G V.
  Hypothesis Hcan : env_canon G.
  Hypothesis Hgood : env_good G.

  Theorem trans_exp_repr : forall e r v, trans_exp num G e = Some r -> eval_exp V e = Some v -> repr rho r v.
  Proof.
    apply trans_eval_ind.
    - intros x r v H1 H2. destruct (trans_name_sound num rho G V x r v Hok H1 H2) as [S K].
      destruct (K Hcan Hgood) as [W Gv]. exact (conj (conj S W) Gv).
    - intros x p r v0 v H1 H2 H3. destruct (trans_sub_sound num rho G V x p r v0 v Hok Hcan H1 H2 H3) as [S K].
      exact (conj S (K Hgood)).
    - intros op rs vs r v HF H1 H2.
      exact (repr_of_bool rho r v (trans_boolop_sound rho op rs vs r v (proj1 (repr_list rho rs vs HF)) H1 H2)).
    - intros op ra va r v [[Sa _] Ga] H1 H2. split; [exact (trans_un_sound rho op ra va r v Sa H1 H2)|].
      destruct op, va; try discriminate; injection H2 as <-; [reflexivity|exact Ga].
    - intros rc rt rf vc vt vf r v [[Sc _] _] [[St _] Gt] [[Sf _] Gf] H1 H2.
      exact (conj (trans_if_sound rho rc rt rf vc vt vf r v Sc St Sf H1 H2) (eval_if_good vc vt vf v Gt Gf H2)).
    - exact (trans_const_repr rho).
    - exact (trans_const_tup_repr rho).
    - exact (tuple_repr rho).
    - intros op ra rb va vb r v [[Sa _] _] [[Sb _] _] H1 H2.
      exact (repr_of_bool rho r v (trans_cmp_sound rho op ra rb va vb r v Sa Sb H1 H2)).
    - intros op sh ra rb va vb r v [[Sa _] Ga] [[Sb _] Gb] H1 H2.
      exact (conj (trans_bin_sound rho op sh ra rb va vb r v Sa Sb H1 H2) (eval_bin_good op sh va vb v Ga Gb H2)).
    - exact (cast_const_repr rho).
    - intros ra va r v [[Sa Wa] Ga] H1 H2. destruct (trans_int_sound rho ra va r v Sa H1 H2) as (S & W & K).
      exact (conj (conj S (W Wa)) (K Ga)).
    - intros ra va r v [[Sa Wa] Ga] H1 H2. destruct (trans_float_sound rho ra va r v Sa H1 H2) as (S & W & K).
      exact (conj (conj S (W Wa)) (K Ga)).
  Qed.
End Repr.

Lemma nodupb_true l : NoDup l -> nodupb l = true.
Proof.
  induction 1 as [|x l Hx _ IH]; cbn [nodupb]; [reflexivity|]. rewrite IH, andb_true_r. apply negb_true_iff.
  destruct (existsb (Nat.eqb x) l) eqn:E; [|reflexivity]. apply existsb_exists in E as (y & Hy & E).
  apply Nat.eqb_eq in E. now subst.
Qed.

Lemma names_go_prefix base : forall l k n,
  (forall t b m, In t l -> In m (arg_names b t) -> exists suf, m = b ++ suf) ->
  In n (names_go base l k) -> exists k' suf, (k <= k')%nat /\ n = base ++ k' :: suf.
Proof.
  induction l as [|x l IH]; intros k n Hp H; cbn [names_go] in H; [destruct H|].
  apply in_app_iff in H as [H|H].
  - destruct (Hp x _ _ (or_introl eq_refl) H) as (suf & ->). exists k, suf. split; [lia|]. now rewrite <- app_assoc.
  - destruct (IH (S k) n (fun t b m Ht => Hp t b m (or_intror Ht)) H) as (k' & suf & Hk & ->).
    exists k', suf. split; [lia|reflexivity].
Qed.

Lemma arg_names_prefix : forall t base n, In n (arg_names base t) -> exists suf, n = base ++ suf.
Proof.
  induction t as [|w|i f| |l IH] using ty_ind2; intros base n H;
    try (cbn [arg_names] in H; unfold bit_names in H; apply in_map_iff in H as (k & <- & _); now eexists).
  - destruct H as [<-|[]]. exists []. now rewrite app_nil_r.
  - rewrite arg_names_tuple in H. rewrite Forall_forall in IH.
    destruct (names_go_prefix base l 0 n (fun t b m Ht => IH t Ht b m) H) as (k' & suf & _ & ->). now eexists.
Qed.

Lemma arg_names_nodup : forall t base, NoDup (arg_names base t).
Proof.
  assert (B : forall base n, NoDup (bit_names base n)).
  { intros base n. unfold bit_names. apply NoDup_map_inj; [|apply seq_NoDup].
    intros x y E. apply app_inv_head in E. now injection E. }
  induction t as [|w|i f| |l IH] using ty_ind2; intros base; try apply B.
  - constructor; [intros []|constructor].
  - rewrite arg_names_tuple. generalize 0%nat.
    induction IH as [|x l Hx Hl IHl]; intros k; cbn [names_go]; [constructor|].
    apply NoDup_app_intro; [apply Hx|apply IHl|].
    intros n H1 H2. destruct (arg_names_prefix _ _ _ H1) as (s1 & ->).
    rewrite Forall_forall in Hl.
    destruct (names_go_prefix base l (S k) _ (fun t b m _ => arg_names_prefix t b m) H2) as (k' & s2 & Hk & E).
    rewrite <- app_assoc in E. apply app_inv_head in E. cbn [app] in E. injection E as E _. lia.
Qed.

(* what a statement binds: the name with the translated value (coerced to the declared type,
   regrouped), and on the evaluator's side the value *)
Definition stmt_res (num : sname -> nat) (G : env) (rt : ty) (s : pstmt) : option (ident * tres) :=
  match s with
  | SAssign x e => option_map (fun r => (x, regroup_value r)) (trans_exp num G e)
  | SReturn e => option_map (fun r => (ret_id, regroup_value r)) (obind (trans_exp num G e) (ret_coerce rt))
  | _ => None
  end.
Definition stmt_val (V : venv) (rt : ty) (s : pstmt) : option value :=
  match s with
  | SAssign _ e => eval_exp V e
  | SReturn e => obind (eval_exp V e) (coerce_ret rt)
  | _ => None
  end.

Lemma trans_stmt_res num G rt s ds G' : trans_stmt num G rt s = Some (ds, G') ->
  match stmt_res num G rt s with
  | Some (x, r) => ds = decompose [x] (snd r) /\ G' = bind G x (fst r, map fst ds)
                   /\ stmt_guard num G rt s = seq_ok (numbered num ds)
  | None => ds = [] /\ G' = G /\ forall V V', eval_stmt V rt s = Some V' -> V' = V
  end.
Proof.
  destruct s as [x e|e|e|]; cbn [trans_stmt stmt_res]; [| | |discriminate].
  - unfold trans_assign, stmt_guard, stmt_guard_g. destruct (trans_exp num G e) as [r0|]; [|discriminate].
    intros [= <- <-]. cbn [option_map fst snd]. unfold res_guard_g. now rewrite andb_true_r.
  - unfold trans_return, stmt_guard, stmt_guard_g. destruct (trans_exp num G e) as [r0|]; [|discriminate].
    cbn [obind]. destruct (ret_coerce rt r0) as [r1|]; [|discriminate]. cbn [obind option_map].
    destruct (lookup G ret_id); [discriminate|]. intros [= <- <-]. cbn [fst snd]. unfold res_guard_g.
    now rewrite andb_true_r.
  - destruct (trans_exp num G e); [|discriminate]. intros [= <- <-]. repeat split.
    intros V V' H. cbn [eval_stmt] in H. now apply option_map_some in H as (v & _ & ->).
Qed.

Lemma eval_stmt_val num G V rt s x r V' : stmt_res num G rt s = Some (x, r) -> eval_stmt V rt s = Some V' ->
  exists v, stmt_val V rt s = Some v /\ V' = bind V x v.
Proof.
  destruct s as [y e|e|e|]; cbn [stmt_res eval_stmt stmt_val]; try discriminate; intros Hr Hv.
  - apply option_map_some in Hr as (r0 & _ & [= -> _]). apply option_map_some in Hv as (v & Hv & ->). now exists v.
  - apply option_map_some in Hr as (r1 & _ & [= -> _]). apply obind_some in Hv as (v & Hv & Hv').
    bind_inv Hv' as v' Hc. destruct (lookup V ret_id); [discriminate|]. injection Hv' as <-.
    exists v'. rewrite Hv. now split.
Qed.

Lemma regroup_bindable rho x r v : sem rho r v -> wf_res r -> ty_good (fst r) = true ->
  sem rho (regroup_value r) v
  /\ map fst (decompose [x] (snd (regroup_value r))) = arg_names [x] (fst (regroup_value r))
  /\ ty_good (fst (regroup_value r)) = true.
Proof.
  intros S W Gt. rewrite regroup_value_type.
  split; [now apply regroup_value_sem|split; [exact (regroup_canon rho x r v S W)|exact Gt]].
Qed.

Lemma stmt_res_bindable num rho G V rt s x r v :
  env_ok num rho G V -> env_canon G -> env_good G -> ty_good rt = true ->
  stmt_res num G rt s = Some (x, r) -> stmt_val V rt s = Some v ->
  sem rho r v /\ map fst (decompose [x] (snd r)) = arg_names [x] (fst r) /\ ty_good (fst r) = true.
Proof.
  intros Hok Hcan Hgood Hrt Hr Hv. destruct s as [y e|e|e|]; cbn [stmt_res stmt_val] in Hr, Hv; try discriminate.
  - apply option_map_some in Hr as (r0 & Ht & [= -> ->]).
    destruct (trans_exp_repr num rho G V Hok Hcan Hgood e r0 v Ht Hv) as ((S & W) & Gv).
    apply regroup_bindable; [exact S|exact W|]. unfold vgood in Gv. now rewrite (sem_type _ _ _ S) in Gv.
  - apply option_map_some in Hr as (r1 & Ht & [= -> ->]). apply obind_some in Ht as (r0 & Ht & Ec).
    apply obind_some in Hv as (v0 & Hv & Hc).
    destruct (trans_exp_repr num rho G V Hok Hcan Hgood e r0 v0 Ht Hv) as ((S & W) & _).
    destruct (ret_coerce_semw rho rt r0 v0 r1 v S Ec Hc) as (S1 & W1 & Ty).
    apply regroup_bindable; [exact S1|exact (W1 W)|now rewrite Ty].
Qed.

Lemma run_defs_app rho a b : run_defs rho (a ++ b) = run_defs (run_defs rho a) b.
Proof. unfold run_defs. apply fold_left_app. Qed.

Lemma eval_exp_fv V V' : forall e, (forall y, In y (fv e) -> lookup V y = lookup V' y) ->
  eval_exp V e = eval_exp V' e.
Proof.
  assert (Lst : forall l, Forall (fun e => (forall y, In y (fv e) -> lookup V y = lookup V' y) ->
                                     eval_exp V e = eval_exp V' e) l ->
            (forall y, In y (flat_map fv l) -> lookup V y = lookup V' y) -> eval_list V l = eval_list V' l).
  { induction 1 as [|e l He _ IHl]; intros H; [reflexivity|]. cbn [eval_list flat_map] in *.
    rewrite He by (intros y Hy; apply H, in_or_app; now left).
    rewrite IHl by (intros y Hy; apply H, in_or_app; now right). reflexivity. }
  induction e as [x|x p|op l IH|op a IHa|c t f IHc IHt IHf|c|l|l IH|op a b IHa IHb|op a b IHa IHb|t c|a IHa|a IHa|]
    using pexp_ind2; intros H; cbn [fv] in H; try reflexivity.
  - cbn [eval_exp]. apply H. now left.
  - cbn [eval_exp]. rewrite (H x (or_introl eq_refl)). reflexivity.
  - rewrite !eval_exp_boolop. now rewrite (Lst l IH H).
  - cbn [eval_exp]. now rewrite IHa.
  - cbn [eval_exp]. rewrite IHc, IHt, IHf; [reflexivity| | |]; intros y Hy; apply H; rewrite !in_app_iff; auto.
  - rewrite !eval_exp_tuple. now rewrite (Lst l IH H).
  - cbn [eval_exp]. rewrite IHa, IHb; [reflexivity| |]; intros y Hy; apply H; rewrite in_app_iff; auto.
  - cbn [eval_exp]. rewrite IHa, IHb; [reflexivity| |]; intros y Hy; apply H; rewrite in_app_iff; auto.
  - cbn [eval_exp]. now rewrite IHa.
  - cbn [eval_exp]. now rewrite IHa.
Qed.

Lemma fresh_in_spec x e : fresh_in x e = true -> ~ In x (fv e).
Proof.
  unfold fresh_in. intros H Hin. apply negb_true_iff in H.
  assert (existsb (Nat.eqb x) (fv e) = true); [|congruence].
  apply existsb_exists. exists x. split; [exact Hin|apply Nat.eqb_refl].
Qed.

Lemma decode_total : forall t bs, length bs = ty_size t -> exists v, decode t bs = Some v.
Proof.
  induction t as [|w|i f| |l IH] using ty_ind2; intros bs Hl; cbn [ty_size] in Hl.
  - destruct bs as [|b [|]]; try discriminate. now eexists.
  - cbn [decode]. rewrite Hl, Nat.eqb_refl. now eexists.
  - cbn [decode]. rewrite Hl, Nat.eqb_refl. now eexists.
  - cbn [decode]. rewrite Hl. cbn. now eexists.
  - rewrite decode_tuple.
    assert (G : exists vs, decode_list l bs = Some vs); [|destruct G as (vs & ->); now eexists].
    revert bs Hl. induction IH as [|x l Hx _ IHl]; intros bs Hl; cbn [decode_list map] in *.
    + apply length_zero_iff_nil in Hl. subst. now eexists.
    + rewrite list_sum_cons in Hl.
      destruct (Hx (firstn (ty_size x) bs)) as (a & ->); [rewrite firstn_length; lia|].
      destruct (IHl (skipn (ty_size x) bs)) as (b & ->); [rewrite skipn_length; lia|]. now eexists.
Qed.

Definition bitk (k : nat) (v : value) : bool := nth k (encode v) false.

Lemma den_bit rho r v k : den rho r = Some v -> beval rho (nth k (flat (snd r)) bfalse) = bitk k v.
Proof.
  intros H. unfold den in H. apply decode_encode in H. unfold bitk. rewrite H.
  change false with (beval rho bfalse). now rewrite map_nth.
Qed.

(* running a definition list whose k-th definition may read, of the assigned symbols, only its
   OWN target (the old value at the same index) *)
Lemma run_defs_own_target (S : list nat) rho : forall ds rho_c,
  NoDup (map fst ds) -> (forall d, In d ds -> In (fst d) S) ->
  (forall j, ~ In j S \/ In j (map fst ds) -> rho_c j = rho j) ->
  (forall d, In d ds -> forall rho1, (forall j, ~ In j S \/ j = fst d -> rho1 j = rho j) ->
                         beval rho1 (snd d) = beval rho (snd d)) ->
  (forall d, In d ds -> run_defs rho_c ds (fst d) = beval rho (snd d))
  /\ (forall j, ~ In j (map fst ds) -> run_defs rho_c ds j = rho_c j).
Proof.
  induction ds as [|[s e] ds IH]; intros rho_c Hnd HS Hinv Hind; [split; [intros d []|reflexivity]|].
  cbn [map fst] in Hnd. inversion Hnd as [|? ? Hs Hnd']; subst.
  rewrite run_defs_cons. set (rho_c' := fun j => if Nat.eqb j s then beval rho_c e else rho_c j).
  assert (E0 : beval rho_c e = beval rho e).
  { apply (Hind (s, e) (or_introl eq_refl)). intros j [Hj|Hj]; apply Hinv; [now left|right; subst; now left]. }
  assert (HsS : In s S) by (apply (HS (s, e)); now left).
  destruct (IH rho_c' Hnd') as [A B].
  - intros d Hd. apply HS. now right.
  - intros j Hj. unfold rho_c'. destruct (Nat.eqb_spec j s) as [->|Hne].
    + exfalso. destruct Hj as [Hj|Hj]; [now apply Hj|now apply Hs].
    + apply Hinv. destruct Hj as [Hj|Hj]; [now left|right; now right].
  - intros d Hd. apply Hind. now right.
  - split.
    + intros d [<-|Hd]; [|now apply A]. cbn [fst snd]. rewrite B by exact Hs. unfold rho_c'.
      now rewrite Nat.eqb_refl.
    + intros j Hj. cbn [map fst In] in Hj. rewrite B by tauto. unfold rho_c'.
      destruct (Nat.eqb_spec j s); [subst; tauto|reflexivity].
Qed.

Lemma decode_vi_lt t bs w n : decode t bs = Some (VI w n) -> n < p2 w.
Proof.
  intros H. destruct (decode_type _ _ _ H) as [T _]. cbn [type_of] in T. subst t.
  apply decode_qint in H as [Hl E]. injection E as ->. rewrite <- Hl. apply bits_val_lt.
Qed.

Lemma bitk_widen k w w' n : n < p2 w -> (w <= w')%nat -> bitk k (VI w' n) = bitk k (VI w n).
Proof.
  intros Hn Hw. unfold bitk. cbn [encode].
  destruct (Nat.ltb_spec k w) as [K|K].
  - rewrite !nbits_testbit by lia. reflexivity.
  - rewrite (nth_overflow (nbits w n)) by (rewrite nbits_length; exact K).
    destruct (Nat.ltb_spec k w') as [K'|K'].
    + rewrite nbits_testbit by exact K'. apply testbit_small.
      apply N.lt_le_trans with (p2 w); [exact Hn|]. apply p2_le. exact K.
    + apply nth_overflow. rewrite nbits_length. exact K'.
Qed.

(* b is a, or both are Qint types and b is at least as wide: what eval_if's widening does to the type of x *)
Definition widen_of (a b : ty) : Prop := a = b \/ exists w w', a = TQint w /\ b = TQint w' /\ (w <= w')%nat.

Lemma widen_of_le a w w' : widen_of a (TQint w) -> (w <= w')%nat -> widen_of a (TQint w').
Proof.
  intros [->|(u & u' & -> & [= <-] & H)] Hl; right; [exists w, w'|exists u, w']; repeat split; lia.
Qed.

(* what follows from selfite x e = true: e is the name x, or an if-expression whose test does not read x
   and whose branches are again of this kind or do not read x, one of them at least of this kind *)
Lemma selfite_ind x (P : pexp -> Prop) :
  P (EName x) ->
  (forall c t f, fresh_in x c = true ->
     (P t /\ (P f \/ fresh_in x f = true)) \/ (fresh_in x t = true /\ P f) -> P (EIf c t f)) ->
  forall e, selfite x e = true -> P e.
Proof.
  intros Hn Hi. induction e as [y| | | |c IHc t IHt f IHf| | | | | | | | |]; cbn [selfite]; intros H; try discriminate.
  - apply Nat.eqb_eq in H. now subst y.
  - apply andb_true_iff in H as [Fc H]. apply (Hi c t f Fc).
    apply orb_true_iff in H as [H|H]; apply andb_true_iff in H as [H1 H2]; [left|right; now auto].
    split; [now apply IHt|]. apply orb_true_iff in H2 as [H2|H2]; [left; now apply IHf|now right].
Qed.

(* V0 and V1 agree except at x, whose two values have the same type and the same k-th bit.  Then an
   expression that reads x only as the unchanged branch of if-expressions (selfite) has in V1 a value of
   the same type with the same k-th bit as in V0 (stable_at).  This is what lets a statement `x = e`
   of the class read its own target: its k-th definition reads, of the bits of x, only the k-th
   (class_val_stable). *)
Section SelfIte.
  Variable num : sname -> nat.
  Variables (rho0 rho1 : nat -> bool) (G : env) (V0 V1 : venv) (x : ident) (k : nat) (v0 v1 : value).
  Hypothesis Hok0 : env_ok num rho0 G V0.
  Hypothesis Hok1 : env_ok num rho1 G V1.
  Hypothesis Hcan : env_canon G.
  Hypothesis Hsame : forall y, y <> x -> lookup V1 y = lookup V0 y.
  Hypothesis Hx0 : lookup V0 x = Some v0.
  Hypothesis Hx1 : lookup V1 x = Some v1.
  Hypothesis Hty : type_of v1 = type_of v0.
  Hypothesis Hbit : bitk k v1 = bitk k v0.

  Lemma fresh_eval e : fresh_in x e = true -> eval_exp V1 e = eval_exp V0 e.
  Proof.
    intros F. apply eval_exp_fv. intros y Hy. apply Hsame. intros ->. exact (fresh_in_spec _ _ F Hy).
  Qed.

  Definition stable_at (e : pexp) : Prop :=
    forall r w0, trans_exp num G e = Some r -> eval_exp V0 e = Some w0 ->
    exists w1, eval_exp V1 e = Some w1 /\ type_of w1 = type_of w0 /\ bitk k w1 = bitk k w0.

  Lemma fresh_stable e : fresh_in x e = true -> stable_at e.
  Proof. intros F r w0 _ H0. exists w0. rewrite (fresh_eval e F). now repeat split. Qed.

  Lemma if_stable c t f : fresh_in x c = true -> stable_at t -> stable_at f -> stable_at (EIf c t f).
  Proof.
    intros Fc St Sf r w0 Ht H0. cbn [trans_exp] in Ht. cbn [eval_exp] in H0 |- *.
    bind_inv Ht as rc Hrc. bind_inv Ht as rt Hrt.
    apply obind_some in Ht as (rf & Hrf & _).
    bind_inv H0 as vc Hvc. bind_inv H0 as vt0 Hvt.
    bind_inv H0 as vf0 Hvf.
    rewrite (fresh_eval c Fc), Hvc. cbn [obind].
    destruct (St _ _ Hrt Hvt) as (vt1 & Et & Tt & Bt). destruct (Sf _ _ Hrf Hvf) as (vf1 & Ef & Tf & Bf).
    rewrite Et, Ef. cbn [obind].
    destruct vc as [b| | | |]; try discriminate. cbn [eval_if] in H0 |- *. rewrite Tt, Tf.
    destruct (ty_eq (type_of vt0) (type_of vf0)).
    - injection H0 as <-. eexists. split; [reflexivity|]. destruct b; now split.
    - destruct vt0 as [|wt x0| | |]; try discriminate. destruct vf0 as [|wf y0| | |]; try discriminate.
      injection H0 as <-.
      destruct vt1 as [|wt' x1| | |]; try discriminate. destruct vf1 as [|wf' y1| | |]; try discriminate.
      cbn [type_of] in Tt, Tf. injection Tt as ->. injection Tf as ->.
      eexists. split; [reflexivity|]. split; [reflexivity|].
      pose proof (trans_exp_sound num rho0 G V0 t rt _ Hok0 Hcan Hrt Hvt) as S0t.
      pose proof (trans_exp_sound num rho1 G V1 t rt _ Hok1 Hcan Hrt Et) as S1t.
      pose proof (trans_exp_sound num rho0 G V0 f rf _ Hok0 Hcan Hrf Hvf) as S0f.
      pose proof (trans_exp_sound num rho1 G V1 f rf _ Hok1 Hcan Hrf Ef) as S1f.
      apply decode_vi_lt in S0t, S1t, S0f, S1f.
      destruct b.
      + rewrite (bitk_widen k wt _ x1 S1t) by lia. rewrite (bitk_widen k wt _ x0 S0t) by lia. exact Bt.
      + rewrite (bitk_widen k wf _ y1 S1f) by lia. rewrite (bitk_widen k wf _ y0 S0f) by lia. exact Bf.
  Qed.

  Theorem selfite_stable : forall e, selfite x e = true -> stable_at e.
  Proof.
    refine (selfite_ind x _ _ _).
    - intros r w0 _ H0. cbn [eval_exp] in H0 |- *.
      rewrite Hx0 in H0. injection H0 as <-. exists v1. now repeat split.
    - intros c t f Fc [(St & [Sf|Ff])|(Ft & Sf)]; apply if_stable; auto using fresh_stable.
  Qed.

  Theorem selfite_type : forall e, selfite x e = true -> forall w0, eval_exp V0 e = Some w0 ->
    widen_of (type_of v0) (type_of w0).
  Proof.
    refine (selfite_ind x _ _ _).
    - intros w0 H0. cbn [eval_exp] in H0. rewrite Hx0 in H0. injection H0 as <-. now left.
    - intros c t f _ H w0 H0. cbn [eval_exp] in H0.
      bind_inv H0 as vc _. bind_inv H0 as vt0 Hvt.
      bind_inv H0 as vf0 Hvf.
      assert (W : widen_of (type_of v0) (type_of vt0) \/ widen_of (type_of v0) (type_of vf0))
        by (destruct H as [[IHt _]|[_ IHf]]; [left; now apply IHt|right; now apply IHf]).
      destruct vc as [b| | | |]; try discriminate. cbn [eval_if] in H0.
      destruct (ty_eq (type_of vt0) (type_of vf0)) eqn:E.
      + apply ty_eq_true in E. injection H0 as <-. destruct b, W as [W|W]; congruence.
      + destruct vt0 as [|wt x0| | |]; try discriminate. destruct vf0 as [|wf y0| | |]; try discriminate.
        injection H0 as <-. cbn [type_of] in *.
        destruct W as [W|W]; [apply (widen_of_le _ wt)|apply (widen_of_le _ wf)]; [exact W|lia|exact W|lia].
  Qed.
End SelfIte.

Lemma selfite_bound num G x : forall e, selfite x e = true -> forall r, trans_exp num G e = Some r ->
  exists b, lookup G x = Some b.
Proof.
  refine (selfite_ind x _ _ _).
  - intros r Ht. cbn [trans_exp] in Ht. destruct (lookup G x) as [b|]; [now exists b|discriminate].
  - intros c t f _ H r Ht. cbn [trans_exp] in Ht.
    bind_inv Ht as rc _. bind_inv Ht as rt Hrt.
    apply obind_some in Ht as (rf & Hrf & _).
    destruct H as [[IHt _]|[_ IHf]]; [now apply (IHt rt)|now apply (IHf rf)].
Qed.

Lemma arg_names_widen base a b k : widen_of a b -> (k < ty_size a)%nat ->
  nth k (arg_names base a) [] = nth k (arg_names base b) [].
Proof.
  intros [->|(w & w' & -> & -> & Hw)] Hk; [reflexivity|]. cbn [ty_size] in Hk. cbn [arg_names ty_size].
  unfold bit_names.
  rewrite (nth_indep _ [] (base ++ [0%nat])) by (rewrite map_length, seq_length; lia).
  rewrite (nth_indep (map _ (seq 0 w')) [] (base ++ [0%nat])) by (rewrite map_length, seq_length; lia).
  rewrite !(map_nth (fun i => base ++ [i])), !seq_nth by lia. reflexivity.
Qed.

(* for a body all of whose statements are in the class the guard holds, whatever the program computes *)
Lemma body_class_guard2 num : forall body G rt, forallb stmt_class body = true -> body_guard2 num G rt body = true.
Proof.
  induction body as [|s body IH]; intros G rt H; [reflexivity|]. cbn [forallb] in H. apply andb_true_iff in H as [H1 H2].
  cbn [body_guard2]. unfold stmt_guard2. rewrite H1. cbn [orb andb].
  destruct (trans_stmt num G rt s) as [dg|]; [now apply IH|reflexivity].
Qed.

Lemma body_guard_guard2 num : forall body G rt, body_guard num G rt body = true -> body_guard2 num G rt body = true.
Proof.
  induction body as [|s body IH]; intros G rt H; [reflexivity|]. unfold body_guard in H. cbn [body_guard_g] in H.
  apply andb_true_iff in H as [H1 H2]. cbn [body_guard2]. unfold stmt_guard2. rewrite H1, orb_true_r. cbn [andb].
  destruct (trans_stmt num G rt s) as [dg|]; [now apply IH|reflexivity].
Qed.

Section Stmt.
  Variable num : sname -> nat.
  Hypothesis Hinj : forall a b, num a = num b -> a = b.

  (* ANOTHER binding still fits: its bits are not among names that start with x, so they read the
     same under an assignment that differs only there *)
  Lemma other_binding rho rho1 G V x (N : list sname) y t bv :
    env_ok num rho G V -> env_canon G -> (forall n, In n N -> exists suf, n = [x] ++ suf) ->
    (forall j, ~ In j (map num N) -> rho1 j = rho j) ->
    lookup G y = Some (t, bv) -> y <> x ->
    exists v, lookup V y = Some v /\ decode t (map (rbit num rho1) bv) = Some v.
  Proof.
    intros Hok Hcan HN Hag Hy Hne. destruct (Hok _ _ _ Hy) as (v & Hv & Hd). exists v. split; [exact Hv|].
    assert (E : map (rbit num rho1) bv = map (rbit num rho) bv); [|now rewrite E].
    apply map_ext_in. intros s Hin. unfold rbit. apply Hag.
    intros H. apply in_map_iff in H as (n & En & Hn). apply Hinj in En. subst n.
    rewrite (Hcan _ _ _ Hy) in Hin. destruct (arg_names_prefix _ _ _ Hin) as (s1 & E1).
    destruct (HN _ Hn) as (s2 & E2). rewrite E1 in E2. cbn [app] in E2. injection E2 as E2 _. congruence.
  Qed.

  Lemma numbered_fst ds : map fst (numbered num ds) = map num (map fst ds).
  Proof. unfold numbered. now rewrite !map_map. Qed.

  (* rho' assigns to the numbered names of the definitions their values under rho, and
     is rho elsewhere *)
  Lemma bind_res_core rho rho' G V x r v :
    env_ok num rho G V -> env_canon G -> sem rho r v ->
    map fst (decompose [x] (snd r)) = arg_names [x] (fst r) ->
    (forall j, ~ In j (map fst (numbered num (decompose [x] (snd r)))) -> rho' j = rho j) ->
    Forall (fun d => rho' (fst d) = beval rho (snd d)) (numbered num (decompose [x] (snd r))) ->
    env_ok num rho' (bind G x (fst r, map fst (decompose [x] (snd r)))) (bind V x v)
    /\ env_canon (bind G x (fst r, map fst (decompose [x] (snd r)))).
  Proof.
    intros Hok Hcan Hs Hnames A B. rewrite numbered_fst, Hnames in A.
    split.
    - intros y t bv Hy. rewrite lookup_bind in Hy. rewrite lookup_bind. destruct (Nat.eqb_spec y x) as [->|Hyx].
      + injection Hy as <- <-. exists v. split; [reflexivity|].
        set (ds := decompose [x] (snd r)) in *.
        assert (E : map (rbit num rho') (map fst ds) = map (beval rho) (flat (snd r))); [|rewrite E; exact Hs].
        rewrite <- (decompose_snd (snd r) [x]). fold ds. rewrite !map_map.
        apply map_ext_in. intros d Hd. unfold numbered in B. rewrite Forall_map in B.
        rewrite Forall_forall in B. exact (B d Hd).
      + exact (other_binding rho rho' G V x _ y t bv Hok Hcan (fun n Hn => arg_names_prefix _ _ _ Hn) A Hy Hyx).
    - intros y t bv Hy. rewrite lookup_bind in Hy. destruct (Nat.eqb_spec y x) as [->|Hyx].
      + injection Hy as <- <-. exact Hnames.
      + now apply Hcan in Hy.
  Qed.

  Lemma numbered_nodup x r : map fst (decompose [x] (snd r)) = arg_names [x] (fst r) ->
    NoDup (map fst (numbered num (decompose [x] (snd r)))).
  Proof.
    intros Hnames. rewrite numbered_fst, Hnames.
    apply NoDup_map_inj; [exact Hinj|apply arg_names_nodup].
  Qed.

  Lemma env_good_bind G x t bv : env_good G -> ty_good t = true -> env_good (bind G x (t, bv)).
  Proof.
    intros Hg Ht y t' bv' Hy. rewrite lookup_bind in Hy. destruct (Nat.eqb y x); [now injection Hy as <- _|].
    exact (Hg _ _ _ Hy).
  Qed.

  (* the environment still fits an assignment that differs from rho only on names that start with
     x, once the value of x is re-read from that assignment *)
  Lemma env_ok_shift rho rho1 G V x (N : list sname) :
    env_ok num rho G V -> env_canon G ->
    (forall n, In n N -> exists suf, n = [x] ++ suf) ->
    (forall j, ~ In j (map num N) -> rho1 j = rho j) ->
    exists V1, env_ok num rho1 G V1 /\ (forall y, y <> x -> lookup V1 y = lookup V y)
      /\ (forall t bv v0, lookup G x = Some (t, bv) -> lookup V x = Some v0 ->
            exists v1, lookup V1 x = Some v1 /\ type_of v1 = type_of v0 /\
                       encode v1 = map (rbit num rho1) bv /\ encode v0 = map (rbit num rho) bv).
  Proof.
    intros Hok Hcan HN Hag.
    pose proof (fun y t bv => other_binding rho rho1 G V x N y t bv Hok Hcan HN Hag) as Oth.
    destruct (lookup G x) as [[t bv]|] eqn:E.
    - destruct (Hok _ _ _ E) as (v0 & Hv0 & Hd0). destruct (decode_type _ _ _ Hd0) as [T0 L0].
      rewrite map_length in L0.
      destruct (decode_total t (map (rbit num rho1) bv)) as (v1 & Hd1); [now rewrite map_length|].
      exists (bind V x v1). split; [|split].
      + intros y ty bvy Hy. rewrite lookup_bind. destruct (Nat.eqb_spec y x) as [->|Hne].
        * rewrite E in Hy. injection Hy as <- <-. now exists v1.
        * exact (Oth _ _ _ Hy Hne).
      + intros y Hne. rewrite lookup_bind. now destruct (Nat.eqb_spec y x).
      + intros t' bv' v0' Ht' Hv0'. injection Ht' as <- <-. rewrite Hv0 in Hv0'. injection Hv0' as <-.
        exists v1. rewrite lookup_bind, Nat.eqb_refl. split; [reflexivity|].
        destruct (decode_type _ _ _ Hd1) as [T1 _]. split; [congruence|].
        split; [exact (decode_encode _ _ _ Hd1)|exact (decode_encode _ _ _ Hd0)].
    - exists V. split; [|split; [reflexivity|discriminate]].
      intros y ty bvy Hy. apply (Oth _ _ _ Hy). intros ->. congruence.
  Qed.

  (* the value a statement of the class binds, re-read after bits of its target other than the k-th
     have changed, has the same k-th bit *)
  Lemma class_val_stable rho rho1 G V rt s x r v k :
    env_ok num rho G V -> env_canon G -> stmt_class s = true ->
    stmt_res num G rt s = Some (x, r) -> stmt_val V rt s = Some v -> type_of v = fst r ->
    (forall j, ~ In j (map num (arg_names [x] (fst r))) \/ j = num (nth k (arg_names [x] (fst r)) []) ->
               rho1 j = rho j) ->
    exists V1 v1, env_ok num rho1 G V1 /\ stmt_val V1 rt s = Some v1 /\ bitk k v1 = bitk k v.
  Proof.
    intros Hok Hcan Cl Hr Hv Hty Hag.
    destruct (env_ok_shift rho rho1 G V x (arg_names [x] (fst r)) Hok Hcan
                (fun n Hn => arg_names_prefix _ _ _ Hn) (fun j Hj => Hag j (or_introl Hj)))
      as (V1 & Hok1 & Hsame & Hx). exists V1.
    pose proof (fresh_eval V V1 x Hsame) as Fresh.
    destruct s as [y e|e|e|]; cbn [stmt_res stmt_val stmt_class] in Hr, Hv, Cl |- *; try discriminate.
    - apply option_map_some in Hr as (r0 & Ht & [= <- ->]). rewrite regroup_value_type in Hty, Hag.
      apply orb_true_iff in Cl as [F|S]; [exists v; rewrite (Fresh e F); now repeat split|].
      destruct (selfite_bound num G x e S r0 Ht) as ([t bv] & HG).
      destruct (Hok _ _ _ HG) as (v0 & Hv0 & Hd0). destruct (decode_type _ _ _ Hd0) as [T0 L0].
      rewrite map_length in L0.
      destruct (Hx t bv v0 HG Hv0) as (v1 & Hv1 & Ty & E1 & E0).
      pose proof (selfite_type V x v0 Hv0 e S v Hv) as W.
      assert (Hbit : bitk k v1 = bitk k v0).
      { unfold bitk. rewrite E1, E0. destruct (Nat.ltb_spec k (length bv)) as [K|K].
        - rewrite !(nth_map_lt _ bv []) by exact K. unfold rbit. apply Hag. right. f_equal.
          rewrite (Hcan _ _ _ HG), <- Hty. apply arg_names_widen; [rewrite <- T0; exact W|lia].
        - rewrite !nth_overflow by (rewrite map_length; exact K). reflexivity. }
      destruct (selfite_stable num rho rho1 G V V1 x k v0 v1 Hok Hok1 Hcan Hsame Hv0 Hv1 Ty Hbit e S r0 v Ht Hv)
        as (w1 & Ew & _ & Bw).
      exists w1. exact (conj Hok1 (conj Ew Bw)).
    - apply option_map_some in Hr as (r1 & _ & [= -> _]). exists v. rewrite (Fresh e Cl). now repeat split.
  Qed.

  (* a definition list whose k-th definition may read, of the assigned symbols, only the k-th, reads
     as if simultaneously *)
  Lemma class_simul rho x r :
    map fst (decompose [x] (snd r)) = arg_names [x] (fst r) ->
    (forall k rho1,
        (forall j, ~ In j (map num (arg_names [x] (fst r))) \/ j = num (nth k (arg_names [x] (fst r)) []) ->
                   rho1 j = rho j) ->
        beval rho1 (nth k (flat (snd r)) bfalse) = beval rho (nth k (flat (snd r)) bfalse)) ->
    let ds := numbered num (decompose [x] (snd r)) in
    (forall j, ~ In j (map fst ds) -> run_defs rho ds j = rho j)
    /\ Forall (fun d => run_defs rho ds (fst d) = beval rho (snd d)) ds.
  Proof.
    intros Hnames Hind. set (dec := decompose [x] (snd r)) in *. intros ds.
    assert (HS : map fst ds = map num (arg_names [x] (fst r))) by (unfold ds; now rewrite numbered_fst, Hnames).
    destruct (run_defs_own_target (map fst ds) rho ds rho) as [A B].
    - exact (numbered_nodup x r Hnames).
    - intros d Hd. now apply in_map.
    - reflexivity.
    - intros d Hd rho1 Hag.
      destruct (In_nth ds d (num [], bfalse) Hd) as (k & Hk & <-).
      unfold ds, numbered in *. rewrite map_length in Hk.
      change (num [], bfalse) with ((fun d0 : sname * bexp => (num (fst d0), snd d0)) ([], bfalse)) in *.
      rewrite map_nth in *. cbn [fst snd] in *.
      assert (F1 : fst (nth k dec ([], bfalse)) = nth k (arg_names [x] (fst r)) []).
      { rewrite <- Hnames. symmetry. exact (map_nth fst dec ([], bfalse) k). }
      assert (F2 : snd (nth k dec ([], bfalse)) = nth k (flat (snd r)) bfalse).
      { rewrite <- (decompose_snd (snd r) [x]). symmetry. exact (map_nth snd dec ([], bfalse) k). }
      rewrite F2. apply Hind. intros j Hj. apply Hag. rewrite F1. rewrite HS in *.
      destruct Hj as [Hj|Hj]; [left|right]; assumption.
    - split; [exact B|]. apply Forall_forall. exact A.
  Qed.

  (* ONE statement: in the syntactic class nothing is asked; outside it, seq_ok *)
  Theorem trans_stmt_sound2 rho G V rt s ds G' V' :
    env_ok num rho G V -> env_canon G -> env_good G -> ty_good rt = true ->
    stmt_guard2 num G rt s = true ->
    trans_stmt num G rt s = Some (ds, G') -> eval_stmt V rt s = Some V' ->
    env_ok num (run_defs rho (numbered num ds)) G' V' /\ env_canon G' /\ env_good G'.
  Proof.
    intros Hok Hcan Hgood Hrt Hg Ht Hv. pose proof (trans_stmt_res num G rt s ds G' Ht) as R.
    destruct (stmt_res num G rt s) as [[x r]|] eqn:Er;
      [|destruct R as (-> & -> & HV); rewrite (HV V V' Hv); now repeat split].
    destruct R as (-> & -> & Eg). destruct (eval_stmt_val num G V rt s x r V' Er Hv) as (v & Ev & ->).
    destruct (stmt_res_bindable num rho G V rt s x r v Hok Hcan Hgood Hrt Er Ev) as (Hs & Hn & Gt).
    (* the definitions read as if simultaneously: by the class, or by seq_ok *)
    assert (AB : let ds := numbered num (decompose [x] (snd r)) in
                 (forall j, ~ In j (map fst ds) -> run_defs rho ds j = rho j)
                 /\ Forall (fun d => run_defs rho ds (fst d) = beval rho (snd d)) ds).
    { unfold stmt_guard2 in Hg. destruct (stmt_class s) eqn:Cl.
      - apply class_simul; [exact Hn|]. intros k rho1 Hag.
        destruct (class_val_stable rho rho1 G V rt s x r v k Hok Hcan Cl Er Ev (sem_type _ _ _ Hs) Hag)
          as (V1 & v1 & Hok1 & Ev1 & Hb).
        destruct (stmt_res_bindable num rho1 G V1 rt s x r v1 Hok1 Hcan Hgood Hrt Er Ev1) as (Hs1 & _).
        now rewrite (den_bit rho1 _ _ k Hs1), (den_bit rho _ _ k Hs).
      - cbn [orb] in Hg. fold (stmt_guard num G rt s) in Hg. rewrite Eg in Hg.
        exact (run_defs_seq _ rho Hg (nodupb_true _ (numbered_nodup x r Hn))). }
    destruct AB as [A B]. destruct (bind_res_core rho _ G V x r v Hok Hcan Hs Hn A B) as [O C].
    split; [exact O|split; [exact C|now apply env_good_bind]].
  Qed.

  Theorem trans_body_sound2 : forall body rho G V rt ds G' V',
    env_ok num rho G V -> env_canon G -> env_good G -> ty_good rt = true ->
    body_guard2 num G rt body = true ->
    trans_body num G rt body = Some (ds, G') -> eval_body V rt body = Some V' ->
    env_ok num (run_defs rho (numbered num ds)) G' V' /\ env_canon G' /\ env_good G'.
  Proof.
    induction body as [|s body IH]; intros rho G V rt ds G' V' Hok Hcan Hgood Hrt Hg Ht Hv.
    - cbn in Ht, Hv. injection Ht as <- <-. injection Hv as <-. now repeat split.
    - cbn [trans_body eval_body body_guard2] in *.
      apply andb_true_iff in Hg as [Hg1 Hg2].
      bind_inv Ht as [ds1 G1] Ht1. bind_inv Ht as [ds2 G2] Ht2.
      cbn [fst snd] in *. injection Ht as <- <-. apply obind_some in Hv as (V1 & Hv1 & Hv2).
      rewrite Ht1 in Hg2. cbn [snd] in Hg2.
      destruct (trans_stmt_sound2 rho G V rt s ds1 G1 V1 Hok Hcan Hgood Hrt Hg1 Ht1 Hv1) as (Hok1 & Hcan1 & Hgood1).
      unfold numbered. rewrite map_app, run_defs_app. fold (numbered num ds1). fold (numbered num ds2).
      exact (IH _ _ _ _ _ _ _ Hok1 Hcan1 Hgood1 Hrt Hg2 Ht2 Hv2).
  Qed.

  Theorem trans_body_sound : forall body rho G V rt ds G' V',
    env_ok num rho G V -> env_canon G -> env_good G -> ty_good rt = true ->
    body_guard num G rt body = true ->
    trans_body num G rt body = Some (ds, G') -> eval_body V rt body = Some V' ->
    env_ok num (run_defs rho (numbered num ds)) G' V' /\ env_canon G' /\ env_good G'.
  Proof.
    intros body rho G V rt ds G' V' Hok Hcan Hgood Hrt Hg.
    exact (trans_body_sound2 body rho G V rt ds G' V' Hok Hcan Hgood Hrt (body_guard_guard2 num body G rt Hg)).
  Qed.
End Stmt.

(* the argument values are what the assignment spells on the argument bits *)
Definition args_encoded (num : sname -> nat) (rho : nat -> bool) (args : list (ident * ty)) (vs : list value) : Prop :=
  Forall2 (fun a v => decode (snd a) (map (rbit num rho) (arg_names [fst a] (snd a))) = Some v) args vs.

(* no statement assigns the reserved name _ret *)
Definition wf_body (body : list pstmt) : bool :=
  forallb (fun s => match s with SAssign x _ => negb (Nat.eqb x ret_id) | _ => true end) body.

Lemma arg_env_ok num rho args vs : args_encoded num rho args vs ->
  env_ok num rho (arg_env args) (combine (map fst args) vs).
Proof.
  induction 1 as [|[x t] v args vs Hd _ IH]; intros y ty bv Hy; [discriminate|].
  cbn [arg_env map combine lookup fst snd] in *. destruct (Nat.eqb x y).
  - injection Hy as <- <-. now exists v.
  - now apply IH.
Qed.

Lemma lookup_arg_env args y t bv : lookup (arg_env args) y = Some (t, bv) ->
  In (y, t) args /\ bv = arg_names [y] t.
Proof.
  induction args as [|[x t0] args IH]; intros Hy; [discriminate|].
  cbn [arg_env map lookup fst snd] in Hy. destruct (Nat.eqb_spec x y) as [->|].
  - injection Hy as <- <-. split; [now left|reflexivity].
  - destruct (IH Hy) as [A B]. split; [now right|exact B].
Qed.

Lemma arg_env_canon args : env_canon (arg_env args).
Proof. intros y t bv Hy. exact (proj2 (lookup_arg_env args y t bv Hy)). Qed.

Lemma arg_env_forall (f : ty -> bool) args y t bv :
  forallb (fun a : ident * ty => f (snd a)) args = true -> lookup (arg_env args) y = Some (t, bv) -> f t = true.
Proof.
  intros H Hy. rewrite forallb_forall in H. exact (H (y, t) (proj1 (lookup_arg_env args y t bv Hy))).
Qed.

Definition dom_sub (V : venv) (G : env) : Prop :=
  forall x v, lookup V x = Some v -> exists b, lookup G x = Some b.

Lemma arg_env_dom args : forall vs : list value, length args = length vs ->
  dom_sub (combine (map fst args) vs) (arg_env args).
Proof.
  induction args as [|[x t] args IH]; intros [|v0 vs] Hlen y vy Hy; try discriminate.
  cbn [arg_env map combine lookup fst snd] in *. destruct (Nat.eqb x y); [eauto|].
  apply (IH vs (f_equal pred Hlen) y vy Hy).
Qed.

Lemma coerce_ret_type rt v v' : coerce_ret rt v = Some v' -> type_of v' = rt.
Proof.
  intros H. destruct (coerce_ret_cases _ _ _ H) as [[E ->]|(w & n & r & -> & -> & [[_ ->]|[_ ->]])];
    [exact E|reflexivity..].
Qed.

(* ONE statement keeps: what has a value is bound to a type, and _ret holds a value of the declared type *)
Lemma stmt_invariants num G V rt s ds G' V' :
  match s with SAssign x _ => negb (Nat.eqb x ret_id) | _ => true end = true ->
  dom_sub V G -> (forall v, lookup V ret_id = Some v -> type_of v = rt) ->
  trans_stmt num G rt s = Some (ds, G') -> eval_stmt V rt s = Some V' ->
  dom_sub V' G' /\ (forall v, lookup V' ret_id = Some v -> type_of v = rt).
Proof.
  intros Hw Hdom Hret Ht Hv. pose proof (trans_stmt_res num G rt s ds G' Ht) as R.
  destruct (stmt_res num G rt s) as [[x r]|] eqn:Er;
    [|destruct R as (_ & -> & HV); rewrite (HV V V' Hv); now split].
  destruct R as (_ & -> & _). destruct (eval_stmt_val num G V rt s x r V' Er Hv) as (v & Ev & ->). split.
  - intros y vy. rewrite !lookup_bind. destruct (Nat.eqb y x); [intros _; eauto|apply Hdom].
  - intros vy. rewrite lookup_bind. destruct s as [y e|e|e|]; cbn [stmt_res stmt_val] in Er, Ev; try discriminate.
    + apply option_map_some in Er as (r0 & _ & [= <- _]). apply negb_true_iff in Hw.
      rewrite Nat.eqb_sym in Hw. rewrite Hw. apply Hret.
    + apply option_map_some in Er as (r1 & _ & [= <- _]). rewrite Nat.eqb_refl. intros [= <-].
      apply obind_some in Ev as (v0 & _ & Hc). now apply coerce_ret_type in Hc.
Qed.

Lemma body_invariants num : forall body G V rt ds G' V',
  wf_body body = true -> dom_sub V G -> (forall v, lookup V ret_id = Some v -> type_of v = rt) ->
  trans_body num G rt body = Some (ds, G') -> eval_body V rt body = Some V' ->
  dom_sub V' G' /\ (forall v, lookup V' ret_id = Some v -> type_of v = rt).
Proof.
  induction body as [|s body IH]; intros G V rt ds G' V' Hwf Hdom Hret Ht Hv.
  - cbn in Ht, Hv. injection Ht as <- <-. injection Hv as <-. now split.
  - cbn [trans_body eval_body wf_body forallb] in *. apply andb_true_iff in Hwf as [Hw1 Hw2].
    bind_inv Ht as [ds1 G1] Ht1. bind_inv Ht as [ds2 G2] Ht2.
    cbn [fst snd] in *. injection Ht as <- <-. apply obind_some in Hv as (V1 & Hv1 & Hv2).
    destruct (stmt_invariants num G V rt s ds1 G1 V1 Hw1 Hdom Hret Ht1 Hv1) as [D1 R1].
    exact (IH _ _ _ _ _ _ Hw2 D1 R1 Ht2 Hv2).
Qed.

(* no argument is called _ret; every argument type is ty_good (no sized component of fewer than
   2 bits) *)
Definition wf_args (args : list (ident * ty)) : bool :=
  forallb (fun a => negb (Nat.eqb (fst a) ret_id)) args && forallb (fun a => ty_good (snd a)) args.

Lemma arg_env_good args : forallb (fun a : ident * ty => ty_good (snd a)) args = true -> env_good (arg_env args).
Proof. intros H y t bv. exact (arg_env_forall ty_good args y t bv H). Qed.

Lemma lookup_combine_none args (vs : list value) x :
  forallb (fun a : ident * ty => negb (Nat.eqb (fst a) x)) args = true ->
  lookup (combine (map fst args) vs) x = None.
Proof.
  revert vs; induction args as [|[y t] args IH]; intros [|v vs] H; try reflexivity.
  cbn [forallb fst] in H. apply andb_true_iff in H as [H1 H2]. apply negb_true_iff in H1.
  cbn [map combine lookup fst]. rewrite H1. now apply IH.
Qed.

(* the definition list translate_ast returns, run in order on the argument bits, leaves on the
   declared return bits the value the reference evaluator returns *)
Theorem trans_fun_sound num rho args rt body vs lf v :
  (forall a b, num a = num b -> a = b) ->
  trans_fun num args rt body = Some lf -> eval_fun args rt body vs = Some v ->
  wf_args args = true -> ty_good rt = true -> wf_body body = true ->
  body_guard2 num (arg_env args) rt body = true ->
  args_encoded num rho args vs ->
  lf_ret lf = (rt, arg_names [ret_id] rt) /\
  decode rt (map (fun s => run_defs rho (numbered num (lf_defs lf)) (num s)) (arg_names [ret_id] rt)) = Some v.
Proof.
  intros Hinj Ht Hv Hwa Hgrt Hwf Hg Henc. unfold wf_args in Hwa. apply andb_true_iff in Hwa as [Hwa Hwt].
  unfold trans_fun in Ht.
  destruct (negb (distinct_ids (map fst args))); [discriminate|].
  apply option_map_some in Ht as ([ds G'] & Hb & ->). cbn [lf_ret lf_defs fst snd]. split; [reflexivity|].
  unfold eval_fun in Hv. destruct (negb (Nat.eqb (length args) (length vs))) eqn:Hlen; [discriminate|].
  destruct (negb (forallb _ (combine args vs))); [discriminate|].
  apply obind_some in Hv as (V' & Hev & Hret).
  destruct (trans_body_sound2 num Hinj body rho _ _ rt ds G' V' (arg_env_ok num rho args vs Henc) (arg_env_canon args)
              (arg_env_good args Hwt) Hgrt Hg Hb Hev) as (Hok & Hcan & _).
  apply negb_false_iff, Nat.eqb_eq in Hlen. pose proof (arg_env_dom args vs Hlen) as Hdom0.
  assert (Hret0 : forall v0, lookup (combine (map fst args) vs) ret_id = Some v0 -> type_of v0 = rt).
  { intros v0 H0. rewrite (lookup_combine_none args vs ret_id Hwa) in H0. discriminate. }
  destruct (body_invariants num body _ _ rt ds G' V' Hwf Hdom0 Hret0 Hb Hev) as [Hdom Hrt].
  destruct (Hdom _ _ Hret) as ([t bv] & HG). destruct (Hok _ _ _ HG) as (v0 & Hv0 & Hd).
  rewrite Hret in Hv0. injection Hv0 as <-.
  pose proof (Hcan _ _ _ HG) as ->. destruct (decode_type _ _ _ Hd) as [Ty _].
  rewrite (Hrt _ Hret) in Ty. subst t. exact Hd.
Qed.

(* ... and when every statement is in the syntactic class (target not read by its right-hand side,
   or read only as the unchanged branch of if-expressions), the hypotheses are the class and the
   well-formedness of the program, nothing about what it computes *)
Corollary trans_fun_sound_class num rho args rt body vs lf v :
  (forall a b, num a = num b -> a = b) ->
  trans_fun num args rt body = Some lf -> eval_fun args rt body vs = Some v ->
  wf_args args = true -> ty_good rt = true -> wf_body body = true ->
  forallb stmt_class body = true ->
  args_encoded num rho args vs ->
  lf_ret lf = (rt, arg_names [ret_id] rt) /\
  decode rt (map (fun s => run_defs rho (numbered num (lf_defs lf)) (num s)) (arg_names [ret_id] rt)) = Some v.
Proof.
  intros Hinj Ht Hv Hwa Hgrt Hwf Hcl Henc.
  exact (trans_fun_sound num rho args rt body vs lf v Hinj Ht Hv Hwa Hgrt Hwf
           (body_class_guard2 num body (arg_env args) rt Hcl) Henc).
Qed.

Lemma reject_big_int num G z : (65536 <= z)%Z -> trans_exp num G (EConst (CInt z)) = None.
Proof.
  intros H. cbn [trans_exp trans_const]. destruct (Z.ltb_spec z 0); [reflexivity|].
  cbn [const_to_qtype]. destruct (Z.ltb_spec z 0); [reflexivity|].
  assert (Hn : 65536 <= Z.to_N z) by lia.
  assert (F : forall w, 2 ^ N.of_nat w <= 65536 -> (Z.to_N z <? 2 ^ N.of_nat w) = false)
    by (intros w Hw; apply N.ltb_ge; lia).
  unfold const_int, const_to_qtype_int, const_widths. cbn [const_int_search].
  rewrite !F by (vm_compute; discriminate). reflexivity.
Qed.

Lemma reject_raise num G rt : trans_exp num G ERaise = None /\ trans_stmt num G rt SRaise = None.
Proof. now split. Qed.

(* an injective numbering of bit names exists: [x; i; j] |-> 2^x (2 (2^i (2 (2^j) + 1)) + 1) *)
Fixpoint enc (l : list nat) : nat :=
  match l with
  | [] => 0
  | x :: r => 2 ^ x * (2 * enc r + 1)
  end%nat.

Lemma pow2_odd_inj : forall x y a b, (2 ^ x * (2 * a + 1) = 2 ^ y * (2 * b + 1))%nat -> x = y /\ a = b.
Proof.
  induction x as [|x IH]; intros [|y] a b H.
  - cbn [Nat.pow] in H. split; [reflexivity|lia].
  - exfalso. rewrite Nat.pow_succ_r', <- Nat.mul_assoc in H. cbn [Nat.pow] in H.
    generalize dependent (2 ^ y * (2 * b + 1))%nat. intros m H. lia.
  - exfalso. rewrite Nat.pow_succ_r', <- Nat.mul_assoc in H. cbn [Nat.pow] in H.
    generalize dependent (2 ^ x * (2 * a + 1))%nat. intros m H. lia.
  - rewrite !Nat.pow_succ_r', <- !Nat.mul_assoc in H.
    destruct (IH y a b) as [-> ->]; [lia|now split].
Qed.

Lemma enc_inj : forall a b, enc a = enc b -> a = b.
Proof.
  induction a as [|x a IH]; intros [|y b] H; cbn [enc] in H; try reflexivity.
  - exfalso. pose proof (Nat.pow_nonzero 2 y ltac:(lia)). nia.
  - exfalso. pose proof (Nat.pow_nonzero 2 x ltac:(lia)). nia.
  - apply pow2_odd_inj in H as [-> H]. f_equal. now apply IH.
Qed.

(* the assignment that is true exactly on the listed bit names *)
Definition rho_of (ones : list sname) : nat -> bool := fun k => existsb (fun s => Nat.eqb k (enc s)) ones.

Definition tab_num (tab : list (sname * nat)) (d : nat) : sname -> nat :=
  fun s => match find (fun p => sname_eqb (fst p) s) tab with Some p => snd p | None => d end.

(* a subscript selecting a tuple-typed element is the flat list of the element's bits:
   `a[0]` with a: Tuple[Tuple[bool, Qint[2]], bool] *)
Definition ex_sub_G : env := arg_env [(1%nat, TTuple [TTuple [TBool; TQint 2]; TBool])].
Definition ex_sub_V : venv := [(1%nat, VT [VT [VB true; VI 2 1]; VB false])].
Definition ex_sub_num := tab_num [([1;0;0], 0); ([1;0;1;0], 1); ([1;0;1;1], 2); ([1;1], 3)]%nat 9.
Definition ex_sub_rho : nat -> bool := fun k => Nat.eqb k 0 || Nat.eqb k 1.

Lemma ex_sub_env : env_ok ex_sub_num ex_sub_rho ex_sub_G ex_sub_V /\ env_canon ex_sub_G.
Proof.
  split; [|apply arg_env_canon].
  apply (arg_env_ok ex_sub_num ex_sub_rho [(1%nat, TTuple [TTuple [TBool; TQint 2]; TBool])]
                    [VT [VT [VB true; VI 2 1]; VB false]]).
  constructor; [vm_compute; reflexivity|constructor].
Qed.

(* a tuple-typed value is bound with the bit names of its type:
   `d = a; return d[1]` with a: Tuple[Qint[2], bool] is inside the guards, for EVERY argument value *)
Definition ex_copy_args : list (ident * ty) := [(1%nat, TTuple [TQint 2; TBool])].
Definition ex_copy_body : list pstmt := [SAssign 2%nat (EName 1%nat); SReturn (ESub 2%nat [1%nat])].

(* the side condition seq_ok does NOT follow from translate_statement: given the
   UN-normalised `a = a + 1; return a` (a: Qint[2]) it emits  a.0 := ~a.0 ; a.1 := a.0 ^ a.1,  whose
   second definition reads the NEW a.0 when the list is run in order.  (qlasskit.ast2ast never hands
   this over: it rewrites a self-referencing assignment through a temporary `__a`.) *)
Definition ex_self_args : list (ident * ty) := [(1%nat, TQint 2)].
Definition ex_self_body : list pstmt :=
  [SAssign 1%nat (EBin AoAdd (EName 1%nat) (EConst (CInt 1))); SReturn (EName 1%nat)].

(* the types of the bool / integer fragment, on which an accepted expression always has a value
   (trans_exp_total) *)
Definition ib_ty (t : ty) : bool :=
  match t with TBool => true | TQint w => (0 <? w)%nat | _ => false end.
Definition ib_env (G : env) : Prop := forall x t bv, lookup G x = Some (t, bv) -> ib_ty t = true.

(* names, and / or / not / ~, if-expressions, bool and int constants, comparisons,
   + - * & | ^, shifts by an integer constant *)
Fixpoint frag (e : pexp) : bool :=
  match e with
  | EName _ => true
  | EBoolOp _ l => forallb frag l
  | EUn _ a => frag a
  | EIf c t f => frag c && frag t && frag f
  | EConst (CBool _) | EConst (CInt _) => true
  | ECmp _ a b => frag a && frag b
  | EBin op a b =>
      match op with
      | AoMod | AoOther => false
      | AoShl | AoShr => frag a && match b with EConst (CInt _) => true | _ => false end
      | _ => frag a && frag b
      end
  | _ => false
  end.

Lemma ib_operand rho r v : sem rho r v -> ib_ty (type_of v) = true ->
  (exists b, v = VB b /\ fst r = TBool) \/ (exists w n, v = VI w n /\ fst r = TQint w /\ (0 < w)%nat).
Proof.
  intros H I. apply sem_type in H. destruct v as [b|w n| | |]; try discriminate I; [left; eauto|right].
  exists w, n. repeat split; [now symmetry|now apply Nat.ltb_lt].
Qed.

Lemma ib_vi w n : (0 < w)%nat -> ib_ty (type_of (VI w n)) = true.
Proof. apply Nat.ltb_lt. Qed.

Lemma const_progress c r : frag (EConst c) = true -> trans_const c = Some r ->
  exists v, eval_const c = Some v /\ ib_ty (type_of v) = true.
Proof.
  destruct c as [b|z| | |]; try discriminate; intros _ Ht.
  - exists (VB b). now split.
  - cbn [trans_const const_to_qtype] in Ht. cbn [eval_const]. destruct (z <? 0)%Z; [discriminate|].
    apply lift_some in Ht as (te & Ht & _). apply const_int_some in Ht as (w & -> & Hw & _).
    eexists. split; [reflexivity|]. apply ib_vi. lia.
Qed.

(* of a binary operation the fragment has no %, and shifts only by an integer constant *)
Lemma frag_bin op a b : frag (EBin op a b) = true ->
  frag a = true /\ frag b = true /\ op <> AoMod /\ (op = AoShl \/ op = AoShr -> exists z, b = EConst (CInt z)).
Proof.
  cbn [frag]. intros F. destruct op; try discriminate; apply andb_true_iff in F as [F1 F2];
    try (repeat split; try assumption; try discriminate; intros [E|E]; discriminate);
    destruct b as [| | | | |[ |z| | | ]| | | | | | | |]; try discriminate;
    (repeat split; try assumption; try discriminate; try reflexivity); intros _; now exists z.
Qed.

Section Total.
  Variable num : sname -> nat.
  Variable rho : nat -> bool.
  Variables (G : env) (V : venv).
  Hypothesis Hok : env_ok num rho G V.
  Hypothesis Hcan : env_canon G.
  Hypothesis Hib : ib_env G.

  Definition total_at (e : pexp) : Prop :=
    frag e = true -> forall r, trans_exp num G e = Some r ->
    exists v, eval_exp V e = Some v /\ sem rho r v /\ ib_ty (type_of v) = true.

  (* an expression that has a value denotes it: the progress lemmas give the rest *)
  Lemma total_intro e r : trans_exp num G e = Some r ->
    (exists v, eval_exp V e = Some v /\ ib_ty (type_of v) = true) ->
    exists v, eval_exp V e = Some v /\ sem rho r v /\ ib_ty (type_of v) = true.
  Proof.
    intros Ht (v & Hv & I). exists v. split; [exact Hv|split; [|exact I]].
    exact (trans_exp_sound num rho G V e r v Hok Hcan Ht Hv).
  Qed.

  Lemma total_list l : Forall total_at l -> forallb frag l = true ->
    forall rs, trans_list num G l = Some rs ->
    exists vs, eval_list V l = Some vs /\ Forall2 (sem rho) rs vs.
  Proof.
    induction 1 as [|e l He _ IH]; intros Hf rs Ht; cbn [trans_list eval_list] in *.
    - injection Ht as <-. exists []. split; [reflexivity|constructor].
    - cbn [forallb] in Hf. apply andb_true_iff in Hf as [F1 F2].
      apply some2 in Ht as (a & b & Ea & Eb & ->).
      destruct (He F1 _ Ea) as (v & Hv & Sv & _). destruct (IH F2 _ Eb) as (vs & Hvs & HF).
      rewrite Hv, Hvs. exists (v :: vs). split; [reflexivity|]. now constructor.
  Qed.

  Lemma name_progress x r : trans_exp num G (EName x) = Some r ->
    exists v, eval_exp V (EName x) = Some v /\ ib_ty (type_of v) = true.
  Proof.
    cbn [trans_exp eval_exp]. destruct (lookup G x) as [[t bv]|] eqn:E; [intros _|discriminate].
    destruct (Hok _ _ _ E) as (v & Hv & Hd). exists v. split; [exact Hv|].
    destruct (decode_type _ _ _ Hd) as [T _]. rewrite T. exact (Hib _ _ _ E).
  Qed.

  Lemma boolop_progress op rs vs r : Forall2 (sem rho) rs vs -> trans_boolop op rs = Some r ->
    exists v, eval_boolop op vs = Some v /\ ib_ty (type_of v) = true.
  Proof.
    intros HF Ht. unfold trans_boolop in Ht. destruct (all_bool rs) eqn:Hb; [|discriminate].
    bind_inv Ht as es Hl. apply option_map_some in Ht as (e & Hu & _).
    assert (A : exists bs, all_vb vs = Some bs).
    { clear Hl Hu. induction HF as [|r0 v0 rs vs Hs _ IH]; [now exists []|].
      unfold all_bool in Hb. cbn [forallb] in Hb. apply andb_true_iff in Hb as [B1 B2].
      destruct (IH B2) as (bs & Hbs). pose proof (sem_type _ _ _ Hs) as T.
      destruct (fst r0); try discriminate. destruct v0; try discriminate. cbn [all_vb]. rewrite Hbs. now eexists. }
    destruct A as (bs & Hbs). unfold eval_boolop. destruct vs as [|v0 vs].
    - inversion HF; subst. cbn in Hl. injection Hl as <-. discriminate.
    - rewrite Hbs. cbn [option_map]. eexists. split; reflexivity.
  Qed.

  Lemma un_progress op r v r' : sem rho r v -> ib_ty (type_of v) = true -> trans_un op r = Some r' ->
    exists v', eval_un op v = Some v' /\ ib_ty (type_of v') = true.
  Proof.
    intros Hs Hi Ht.
    destruct (ib_operand _ _ _ Hs Hi) as [(b & -> & T)|(w & n & -> & T & Hw)];
      (destruct op; cbn [trans_un] in Ht; [| |discriminate]); rewrite T in Ht; try discriminate; cbn; eexists.
    - split; reflexivity.
    - split; [reflexivity|now apply ib_vi].
  Qed.

  Lemma if_progress c t f vc vt vf r :
    sem rho c vc -> sem rho t vt -> sem rho f vf ->
    ib_ty (type_of vt) = true -> ib_ty (type_of vf) = true -> trans_if c t f = Some r ->
    exists v, eval_if vc vt vf = Some v /\ ib_ty (type_of v) = true.
  Proof.
    intros Hc Ht Hf It If_ Htr. unfold trans_if in Htr. pose proof (sem_type _ _ _ Hc) as Tc.
    destruct (fst c) eqn:Ec; try discriminate. destruct vc as [b| | | |]; try discriminate. cbn [eval_if].
    destruct (ty_eq (type_of vt) (type_of vf)) eqn:E.
    - eexists. split; [reflexivity|]. now destruct b.
    - bind_inv Htr as cb _. apply obind_some in Htr as ([t' f'] & Hfill & _).
      destruct (ib_operand _ _ _ Ht It) as [(bt & -> & Tt)|(wt & nt & -> & Tt & Hwt)];
        destruct (ib_operand _ _ _ Hf If_) as [(bf & -> & Tf)|(wf & nf & -> & Tf & Hwf)];
        rewrite Tt, Tf in Hfill; cbn [type_of] in E; rewrite E in Hfill; try discriminate Hfill.
      eexists. split; [reflexivity|]. apply ib_vi. lia.
  Qed.

  Lemma cmp_progress op l r vl vr res :
    sem rho l vl -> sem rho r vr -> ib_ty (type_of vl) = true -> ib_ty (type_of vr) = true ->
    trans_cmp op l r = Some res -> exists v, eval_cmp op vl vr = Some v /\ ib_ty (type_of v) = true.
  Proof.
    intros Hl Hr Il Ir Ht. destruct l as [tl trl], r as [tr trr].
    destruct (ib_operand _ _ _ Hl Il) as [(bl & -> & Tl)|(wl & nl & -> & Tl & Hwl)];
      destruct (ib_operand _ _ _ Hr Ir) as [(br & -> & Tr)|(wr & nr & -> & Tr & Hwr)];
      cbn [fst] in Tl, Tr; subst tl tr; unfold trans_cmp in Ht; cbn [fst snd] in Ht.
    - bind_inv Ht as a _. bind_inv Ht as b _.
      destruct op; try discriminate; cbn; eexists; split; reflexivity.
    - cbn [is_qtype andb] in Ht. discriminate.
    - cbn [is_qtype comparable is_qint andb] in Ht. discriminate.
    - cbn [is_qtype comparable is_qint andb] in Ht. apply obind_some in Ht as (o & Ho & _).
      destruct op; try discriminate; cbn; eexists; split; reflexivity.
  Qed.

  Lemma bin_progress op sh l r vl vr res :
    sem rho l vl -> sem rho r vr -> ib_ty (type_of vl) = true -> ib_ty (type_of vr) = true ->
    op <> AoMod -> (op = AoShl \/ op = AoShr -> exists w n, vr = VI w n) ->
    trans_bin op sh l r = Some res ->
    exists v, eval_bin op sh vl vr = Some v /\ ib_ty (type_of v) = true.
  Proof.
    intros Hl Hr Il Ir Hop Hsh Ht. destruct l as [tl trl], r as [tr trr].
    destruct (ib_operand _ _ _ Hl Il) as [(bl & -> & Tl)|(wl & nl & -> & Tl & Hwl)];
      destruct (ib_operand _ _ _ Hr Ir) as [(br & -> & Tr)|(wr & nr & -> & Tr & Hwr)];
      cbn [fst] in Tl, Tr; subst tl tr; unfold trans_bin in Ht;
      cbn [fst snd is_bool is_qint is_qfixed is_qtype andb orb] in Ht.
    - destruct op; try discriminate; cbn; eexists; split; reflexivity.
    - discriminate.
    - exfalso. bind_inv Ht as lt _.
      assert (Sh : op <> AoShl /\ op <> AoShr).
      { split; intros ->; [destruct (Hsh (or_introl eq_refl)) as (w & n & E)|destruct (Hsh (or_intror eq_refl)) as (w & n & E)];
          discriminate. }
      destruct Sh as [S1 S2].
      destruct (to_texp (TBool, trr)) as [[T rb]|] eqn:E.
      + destruct (to_texp_some _ _ E) as [Trt _]. cbn [fst] in Trt. subst T. cbn [obind] in Ht.
        destruct op; try congruence; cbn [type_binop] in Ht;
          unfold qint_add, qint_sub, qint_mul, qint_bitwise_xor, qint_bitwise_or, qint_bitwise, guard2 in Ht;
          cbn [fst is_qtype] in Ht; rewrite ?andb_false_r in Ht; discriminate.
      + destruct op; try congruence; discriminate.
    - bind_inv Ht as lt _.
      assert (Hmax : (0 < Nat.max wl wr)%nat) by lia.
      destruct op; try congruence; cbn [eval_bin].
      (* + - ^ & | : at the wider width *)
      1,2,4,5,6: eexists; (split; [reflexivity|]); now apply ib_vi.
      + apply Nat.ltb_lt in Hwl, Hwr. rewrite Hwl, Hwr. eexists. split; [reflexivity|]. apply ib_vi. pose proof (mul_sizing_ge2 (Nat.max wl wr + Nat.max wl wr)). lia.
      + destruct sh as [[k|]|]; try discriminate. eexists. split; [reflexivity|]. now apply ib_vi.
      + destruct sh as [[k|]|]; try discriminate. eexists. split; [reflexivity|]. now apply ib_vi.
  Qed.

  Theorem trans_exp_total_at : forall e, total_at e.
  Proof.
    induction e as [x|x p|op l IH|op a IHa|c t f IHc IHt IHf|c|l|l IH|op a b IHa IHb|op a b IHa IHb|t c|a IHa|a IHa|]
      using pexp_ind2; intros F r Ht; cbn [frag] in F; try discriminate; apply (total_intro _ r Ht).
    - exact (name_progress x r Ht).
    - rewrite trans_exp_boolop in Ht. rewrite eval_exp_boolop.
      bind_inv Ht as rs Hrs. destruct (total_list l IH F rs Hrs) as (vs & Hvs & HF).
      rewrite Hvs. cbn [obind]. exact (boolop_progress op rs vs r HF Ht).
    - cbn [trans_exp] in Ht. cbn [eval_exp]. bind_inv Ht as ra Hra.
      destruct (IHa F _ Hra) as (va & Hva & Sa & Ia). rewrite Hva. cbn [obind].
      exact (un_progress op ra va r Sa Ia Ht).
    - apply andb_true_iff in F as [F F3]. apply andb_true_iff in F as [F1 F2].
      cbn [trans_exp] in Ht. cbn [eval_exp].
      bind_inv Ht as rc Hrc. bind_inv Ht as rt Hrt.
      bind_inv Ht as rf Hrf.
      destruct (IHc F1 _ Hrc) as (vc & Hvc & Sc & _). destruct (IHt F2 _ Hrt) as (vt & Hvt & St & It).
      destruct (IHf F3 _ Hrf) as (vf & Hvf & Sf & If_). rewrite Hvc, Hvt, Hvf. cbn [obind].
      exact (if_progress rc rt rf vc vt vf r Sc St Sf It If_ Ht).
    - exact (const_progress c r F Ht).
    - apply andb_true_iff in F as [F1 F2]. cbn [trans_exp] in Ht. cbn [eval_exp].
      bind_inv Ht as ra Hra. bind_inv Ht as rb Hrb.
      destruct (IHa F1 _ Hra) as (va & Hva & Sa & Ia). destruct (IHb F2 _ Hrb) as (vb & Hvb & Sb & Ib).
      rewrite Hva, Hvb. cbn [obind]. exact (cmp_progress op ra rb va vb r Sa Sb Ia Ib Ht).
    - apply frag_bin in F as (F1 & F2 & Hop & Hsh).
      cbn [trans_exp] in Ht. cbn [eval_exp].
      bind_inv Ht as ra Hra. bind_inv Ht as rb Hrb.
      destruct (IHa F1 _ Hra) as (va & Hva & Sa & Ia). destruct (IHb F2 _ Hrb) as (vb & Hvb & Sb & Ib).
      rewrite Hva, Hvb. cbn [obind].
      refine (bin_progress op _ ra rb va vb r Sa Sb Ia Ib Hop _ Ht).
      intros Hs. destruct (Hsh Hs) as (z & ->). cbn [eval_exp eval_const] in Hvb.
      destruct (z <? 0)%Z; [discriminate|]. apply option_map_some in Hvb as (w & _ & ->). now eexists; eexists.
  Qed.
End Total.

(* an accepted expression of the fragment has a value, and denotes it *)
Theorem trans_exp_total num rho G V e r :
  env_ok num rho G V -> env_canon G -> ib_env G -> frag e = true -> trans_exp num G e = Some r ->
  exists v, eval_exp V e = Some v /\ den rho r = Some v.
Proof.
  intros Hok Hcan Hib F Ht.
  destruct (trans_exp_total_at num rho G V Hok Hcan Hib e F r Ht) as (v & Hv & Hs & _). now exists v.
Qed.

Lemma arg_env_ib args : forallb (fun a : ident * ty => ib_ty (snd a)) args = true -> ib_env (arg_env args).
Proof. intros H y t bv. exact (arg_env_forall ib_ty args y t bv H). Qed.

Lemma trans_exp_type num rho G V e r v :
  env_ok num rho G V -> env_canon G -> env_good G ->
  trans_exp num G e = Some r -> eval_exp V e = Some v ->
  type_of v = fst r /\ length (flat (snd r)) = ty_size (fst r) /\ wf_res r /\ ty_good (fst r) = true.
Proof.
  intros H1 H2 H3 H4 H5. destruct (trans_exp_repr num rho G V H1 H2 H3 e r v H4 H5) as ((H & W) & Gv).
  apply decode_type in H. rewrite map_length in H. destruct H as [A B].
  repeat split; try assumption. rewrite <- A. exact Gv.
Qed.
