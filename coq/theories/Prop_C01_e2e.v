(* Prop_C01_e2e.v — C01, END TO END: the source-to-source normaliser (M_A2A, untyped Python
   semantics, string names) composed with the expression / statement translator (M_Texp, typed
   qlasskit semantics, numbered names), through the bridge of M_Bridge.v / P_Bridge.v.

   The two reference evaluators are related in the EXACT regime: [exact_*] is a decidable
   predicate computed along the typed evaluation ("no result was reduced modulo 2^w, the return
   coercion kept the value").  There, typed value tv  ==>  untyped value [erase tv].

   Where the two evaluators DIFFER even without wrap (so [conv] / [exact] exclude it; Examples
   C01e_differs_* below):
     ~a          Python: -a-1 (negative);  qlasskit: 2^w-1-a.          ~3 == -4  vs  Qint[2] 0
     a[i], a int Python: TypeError;        qlasskit: bit i of a.       (3)[0]    vs  True
     return      Python stops at the first return; translate_ast goes through EVERY statement
                 and rejects a second one: bodies must end with their only return ([ret_last])
   and the wrap itself:  a + 1, a = 3 : Qint[2]   is 4 in Python and 0 in qlasskit ([exact] false).

   Hypotheses of the composed theorem C01e_end_to_end, all decidable except the two about the
   bit-level numbering (injective numbering, arguments encoded):
     a2a_guard f, a2a f = Ok b'            (normaliser side: C01a_backward)
     conv_sig / conv_body succeed, ret_last (the common fragment)
     conforms_b                            (typed tuple arguments hold tuples)
     eval_fun ... = Some tv, exact_fun     (the typed evaluator gives tv, exactly)
     trans_fun ... = Some lf, wf_args, ty_good rt, forallb stmt_class body
                                           (translator side: C01x_trans_fun_sound_class) *)
From Coq Require Import List Bool NArith ZArith Arith String.
From QV Require Import Bits Bexp BexpTT M_Codec Generated M_Types M_Texp P_Texp.
From QV Require M_A2A P_A2A.
From QV Require Import M_Bridge P_Bridge.
Import ListNotations.
Local Open Scope string_scope.

(* the mapping of names is injective on the names it converts, and never yields `_ret` *)
Theorem C01e_names : forall ns x y,
  known ns x = true -> (idn ns x = idn ns y -> x = y) /\ idn ns x <> ret_id.
Proof. exact (fun ns x y H => conj (idn_inj ns x y H) (fun E => O_S _ (eq_sym E))). Qed.
Print Assumptions C01e_names.

(* expressions: typed value, exactly  ==>  the same Python value *)
Theorem C01e_bridge_exp : forall ext ns V rho e e' tv,
  env_rel ns V rho ->
  conv_exp ns e = Some e' -> eval_exp V e' = Some tv -> exact_exp V e' = true ->
  A.eval ext rho e = Some (erase tv).
Proof. exact (fun ext ns V rho e e' tv H => bridge_exp ext ns V rho H e e' tv). Qed.
Print Assumptions C01e_bridge_exp.

(* statement lists: the untyped execution reaches the Return with the erased value *)
Theorem C01e_bridge_body : forall ext ns rt b V rho body V',
  env_rel ns V rho -> lookup V ret_id = None ->
  conv_body ns b = Some body -> ret_last body = true ->
  eval_body V rt body = Some V' -> exact_body V rt body = true ->
  exists tv rho', lookup V' ret_id = Some tv /\ plain tv = true /\
                  A.exec_list ext b rho = Some (rho', Some (erase tv)).
Proof. exact bridge_body. Qed.
Print Assumptions C01e_bridge_body.

Theorem C01e_bridge_fun : forall ext ns fargs args rt b body vs tv,
  conv_args ns fargs = Some args -> conv_body ns b = Some body -> ret_last body = true ->
  eval_fun args rt body vs = Some tv -> exact_fun args rt body vs = true ->
  A.run ext b (arg_rho (map fst fargs) vs) = Some (erase tv) /\ plain tv = true.
Proof. exact bridge_fun. Qed.
Print Assumptions C01e_bridge_fun.

Theorem C01e_end_to_end : forall ext ns f b' args rt body vs tv num rhoB lf,
  A.a2a_guard f = true -> A.a2a f = A.Ok b' ->
  conv_sig ns f = Some (args, rt) -> conv_body ns b' = Some body -> ret_last body = true ->
  A.conforms_b f (arg_rho (map fst (A.f_args f)) vs) = true ->
  eval_fun args rt body vs = Some tv -> exact_fun args rt body vs = true ->
  (forall a b, num a = num b -> a = b) ->
  trans_fun num args rt body = Some lf ->
  wf_args args = true -> ty_good rt = true -> forallb stmt_class body = true ->
  args_encoded num rhoB args vs ->
  (* (i) the SOURCE function returns erase tv in Python *)
  A.run ext (A.f_body f) (arg_rho (map fst (A.f_args f)) vs) = Some (erase tv) /\
  plain tv = true /\
  (* (ii) the Boolean definitions the translator produces decode to tv *)
  lf_ret lf = (rt, arg_names [ret_id] rt) /\
  decode rt (map (fun s => run_defs rhoB (numbered num (lf_defs lf)) (num s)) (arg_names [ret_id] rt))
    = Some tv.
Proof.
  intros ext ns f b' args rt body vs tv num rhoB lf Hg Ha Hs Hb Hl Hcf Hv Hx Hinj Ht Hwa Hrt Hcl Henc.
  unfold conv_sig in Hs. destruct (conv_args ns (A.f_args f)) as [args'|] eqn:Eargs; [|discriminate].
  destruct (A.f_ret f) as [t|]; [|discriminate]. destruct (conv_ty t) as [rt'|]; [|discriminate].
  cbn [option_map] in Hs. injection Hs as -> ->.
  destruct (bridge_fun ext ns (A.f_args f) args rt b' body vs tv Eargs Hb Hl Hv Hx) as [Hrun Hpl].
  split; [|split; [exact Hpl|]].
  - exact (P_A2A.a2a_backward ext f b' Hg Ha _ (P_A2A.conforms_check f _ Hcf) _ Hrun).
  - exact (trans_fun_sound_class num rhoB args rt body vs lf tv Hinj Ht Hv Hwa Hrt
             (conv_body_wf ns b' body Hb) Hcl Henc).
Qed.
Print Assumptions C01e_end_to_end.

(* def f(a: Qint[2], c: bool) -> Qint[4]:
       b = a
       if c:
           b = b + 1
       return b                                                   f(1, True) == 2 *)
Definition e2e_fun : A.fundef := A.mkfun
  [("a", Some (A.ESubscript (A.EName "Qint") (A.EConst (A.CInt 2)))); ("c", Some (A.EName "bool"))]
  (Some (A.ESubscript (A.EName "Qint") (A.EConst (A.CInt 4))))
  [A.SAssign (A.TName "b") (A.EName "a");
   A.SIf (A.EName "c") [A.SAssign (A.TName "b") (A.EBinOp A.Add (A.EName "b") (A.EConst (A.CInt 1)))] [];
   A.SReturn (A.EName "b")].
Definition e2e_ns : list string := ["a"; "c"; "b"; "_iftarg2"; "__b"].
(* what ast2ast makes of it *)
Definition e2e_norm : list A.stmt :=
  [A.SAssign (A.TName "b") (A.EName "a");
   A.SAssign (A.TName "_iftarg2") (A.EName "c");
   A.SAssign (A.TName "__b")
     (A.EIfExp (A.EName "_iftarg2") (A.EBinOp A.Add (A.EName "b") (A.EConst (A.CInt 1))) (A.EName "b"));
   A.SAssign (A.TName "b") (A.EIfExp (A.EName "_iftarg2") (A.EName "__b") (A.EName "b"));
   A.SReturn (A.EName "b")].
(* ... converted: a = 1, c = 2, b = 3, _iftarg2 = 4, __b = 5 *)
Definition e2e_args : list (ident * ty) := [(1%nat, TQint 2); (2%nat, TBool)].
Definition e2e_body : list pstmt :=
  [SAssign 3%nat (EName 1%nat);
   SAssign 4%nat (EName 2%nat);
   SAssign 5%nat (EIf (EName 4%nat) (EBin AoAdd (EName 3%nat) (EConst (CInt 1))) (EName 3%nat));
   SAssign 3%nat (EIf (EName 4%nat) (EName 5%nat) (EName 3%nat));
   SReturn (EName 3%nat)].
Definition e2e_vs : list value := [VI 2 1; VB true].
(* a.0 = 1, c = 1 under the injective numbering enc *)
Definition e2e_rho : nat -> bool := rho_of [[1; 0]; [2]]%nat.

Example C01e_hypotheses_hold :
  A.a2a_guard e2e_fun = true /\ A.a2a e2e_fun = A.Ok e2e_norm
  /\ conv_sig e2e_ns e2e_fun = Some (e2e_args, TQint 4)
  /\ conv_body e2e_ns e2e_norm = Some e2e_body /\ ret_last e2e_body = true
  /\ A.conforms_b e2e_fun (arg_rho (map fst (A.f_args e2e_fun)) e2e_vs) = true
  /\ eval_fun e2e_args (TQint 4) e2e_body e2e_vs = Some (VI 4 2)
  /\ exact_fun e2e_args (TQint 4) e2e_body e2e_vs = true
  /\ (exists lf, trans_fun enc e2e_args (TQint 4) e2e_body = Some lf)
  /\ wf_args e2e_args = true /\ ty_good (TQint 4) = true /\ forallb stmt_class e2e_body = true
  /\ args_encoded enc e2e_rho e2e_args e2e_vs.
Proof.
  repeat split; try (vm_compute; reflexivity).
  - eexists. vm_compute. reflexivity.
  - repeat constructor.
Qed.

(* ... and the conclusion, for every interpretation of non-builtin calls *)
Example C01e_end_to_end_ex : forall ext,
  A.run ext (A.f_body e2e_fun) (A.env_of [("a", A.VInt 1); ("c", A.VBool true)]) = Some (A.VInt 2)
  /\ exists lf, trans_fun enc e2e_args (TQint 4) e2e_body = Some lf /\
       decode (TQint 4) (map (fun s => run_defs e2e_rho (numbered enc (lf_defs lf)) (enc s))
                             (arg_names [ret_id] (TQint 4))) = Some (VI 4 2).
Proof.
  intros ext.
  destruct C01e_hypotheses_hold as (H1 & H2 & H3 & H4 & H5 & H6 & H7 & H8 & (lf & H9) & H10 & H11 & H12 & H13).
  destruct (C01e_end_to_end ext e2e_ns e2e_fun e2e_norm e2e_args (TQint 4) e2e_body e2e_vs (VI 4 2)
              enc e2e_rho lf H1 H2 H3 H4 H5 H6 H7 H8 enc_inj H9 H10 H11 H12 H13) as (R1 & _ & _ & R2).
  split; [exact R1|]. exists lf. split; [exact H9|exact R2].
Qed.

(* one expression through the rest of the fragment: tuple ==, subscript, int(), shift, < :
       t == (True, a) and (int(t[1]) << 1) < 7          t = (True, 1), a = 1 *)
Example C01e_bridge_exp_ex :
  let ns := ["t"; "a"] in
  let e := A.EBoolOp A.And
     [A.ECompare A.Eq (A.EName "t") (A.ETuple [A.EConst (A.CBool true); A.EName "a"]);
      A.ECompare A.Lt
        (A.EBinOp A.LShift (A.ECall "int" [A.ESubscript (A.EName "t") (A.EConst (A.CInt 1))]) (A.EConst (A.CInt 1)))
        (A.EConst (A.CInt 7))] in
  let V := [(1%nat, VT [VB true; VI 2 1]); (2%nat, VI 2 1)] in
  (exists e', conv_exp ns e = Some e' /\ eval_exp V e' = Some (VB true) /\ exact_exp V e' = true)
  /\ A.eval P_A2A.no_ext (A.env_of [("t", A.VTup [A.VBool true; A.VInt 1]); ("a", A.VInt 1)]) e = Some (A.VBool true).
Proof. split; [eexists; repeat split; vm_compute; reflexivity|vm_compute; reflexivity]. Qed.

(* ~a: Python -4, Qint[2] 0 *)
Example C01e_differs_invert :
  A.eval P_A2A.no_ext (A.env_of [("a", A.VInt 3)]) (A.EUnOp A.Invert (A.EName "a")) = Some (A.VInt (-4))
  /\ eval_exp [(1%nat, VI 2 3)] (EUn UoInvert (EName 1%nat)) = Some (VI 2 0)
  /\ conv_exp ["a"] (A.EUnOp A.Invert (A.EName "a")) = None.
Proof. repeat split; vm_compute; reflexivity. Qed.

(* a[0] on an integer: Python has no value (TypeError), qlasskit reads bit 0 *)
Example C01e_differs_bit_subscript :
  A.eval P_A2A.no_ext (A.env_of [("a", A.VInt 3)]) (A.ESubscript (A.EName "a") (A.EConst (A.CInt 0))) = None
  /\ conv_exp ["a"] (A.ESubscript (A.EName "a") (A.EConst (A.CInt 0))) = Some (ESub 1%nat [0%nat])
  /\ eval_exp [(1%nat, VI 2 3)] (ESub 1%nat [0%nat]) = Some (VB true)
  /\ exact_exp [(1%nat, VI 2 3)] (ESub 1%nat [0%nat]) = false.
Proof. repeat split; vm_compute; reflexivity. Qed.

(* statements after a return: Python stops, translate_ast goes on and rejects the second return *)
Example C01e_differs_return :
  let b := [A.SReturn (A.EConst (A.CBool true)); A.SReturn (A.EConst (A.CBool false))] in
  A.run P_A2A.no_ext b A.empty_env = Some (A.VBool true)
  /\ conv_body [] b = Some [SReturn (EConst (CBool true)); SReturn (EConst (CBool false))]
  /\ eval_body [] TBool [SReturn (EConst (CBool true)); SReturn (EConst (CBool false))] = None
  /\ ret_last [SReturn (EConst (CBool true)); SReturn (EConst (CBool false))] = false.
Proof. repeat split; vm_compute; reflexivity. Qed.

(* the wrap: 3 + 1 is 4 in Python, 0 in Qint[2]; [exact] says so *)
Example C01e_differs_wrap :
  let e := A.EBinOp A.Add (A.EName "a") (A.EConst (A.CInt 1)) in
  A.eval P_A2A.no_ext (A.env_of [("a", A.VInt 3)]) e = Some (A.VInt 4)
  /\ conv_exp ["a"] e = Some (EBin AoAdd (EName 1%nat) (EConst (CInt 1)))
  /\ eval_exp [(1%nat, VI 2 3)] (EBin AoAdd (EName 1%nat) (EConst (CInt 1))) = Some (VI 2 0)
  /\ exact_exp [(1%nat, VI 2 3)] (EBin AoAdd (EName 1%nat) (EConst (CInt 1))) = false.
Proof. repeat split; vm_compute; reflexivity. Qed.
