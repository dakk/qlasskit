(* P_Decopt.v — theorems for C12 (circuit_boolean_optimizer).  Replacing a slice
   by a gate list with the same action keeps the action of the whole circuit:
   for any compositional semantics (an abstract monoid) this is
   splice_preserves_den; for the classical semantics fsim the file has the
   congruence lemmas of acts_alike from which Prop_C12 concludes it.  The loop
   of the optimizer keeps every property that holds of the input and survives an
   accepted replacement (optimize_inv); what is claimed of the optimizer are
   instances.  circ_equiv is a verified decision of "two classical gate lists
   act alike on ALL 2^nq basis states". *)
From Coq Require Import List Bool NArith Arith Lia.
From QV Require Import Bits Bexp BexpTT Circ Compiled M_Decompiler P_Decompiler M_Decopt.
Import ListNotations.

Lemma circuit_split3 (c : circuit) : forall s e, s <= e -> c = firstn s c ++ slice c s e ++ skipn e c.
Proof.
  unfold slice. induction c as [|x c IH]; intros s e H.
  - now rewrite !firstn_nil, !skipn_nil, firstn_nil.
  - destruct s as [|s].
    + cbn [firstn skipn app]. rewrite Nat.sub_0_r. symmetry. apply firstn_skipn.
    + destruct e as [|e]; [lia|]. cbn [firstn skipn app Nat.sub]. f_equal. apply IH. lia.
Qed.

Lemma splice_length c s e new : s <= e -> e <= length c ->
  length (splice c s e new) = s + length new + (length c - e).
Proof.
  intros H1 H2. unfold splice. rewrite !app_length, firstn_length, skipn_length. lia.
Qed.

Lemma firstn_splice c s e new B : B <= s -> s <= length c -> firstn B (splice c s e new) = firstn B c.
Proof.
  intros H1 H2. unfold splice. rewrite firstn_app, firstn_firstn.
  rewrite firstn_length. replace (Nat.min B s) with B by lia.
  replace (B - Nat.min s (length c)) with 0 by lia. cbn [firstn]. apply app_nil_r.
Qed.

Lemma firstn_le_eq {A} (a b : list A) B e : B <= e -> firstn e a = firstn e b -> firstn B a = firstn B b.
Proof.
  intros HB H. replace B with (Nat.min B e) by lia. rewrite <- !firstn_firstn. now rewrite H.
Qed.

Lemma slice_firstn c c' s e : firstn e c = firstn e c' -> slice c s e = slice c' s e.
Proof.
  intros H. unfold slice.
  assert (Hs : forall d : circuit, firstn (e - s) (skipn s d) = skipn s (firstn e d)).
  { intros d. destruct (Nat.le_gt_cases s e) as [Hle|Hgt].
    - rewrite skipn_firstn_comm. reflexivity.
    - replace (e - s) with 0 by lia. cbn [firstn]. symmetry. apply skipn_all2. rewrite firstn_length. lia. }
  now rewrite !Hs, H.
Qed.

(* The loop of the optimizer.  Sections are handled last to first, so when a
   section is handled the result so far still begins like the input up to the
   end of that section.  A property P of the result that holds of the input and
   survives every accepted replacement therefore holds at the end. *)
Lemma fold_steps_inv (P : circuit -> Prop) acc_fn c : P c ->
  forall (l : list sec) (news : list resynth) B,
  sorted_from B l -> (forall s e gs, In (s, e, gs) l -> e <= length c) -> B <= length c ->
  (forall acc s e gs r, In ((s, e, gs), r) (combine l news) -> acc_fn gs r = true ->
     s < e -> e <= length acc -> slice acc s e = slice c s e -> P acc -> P (splice acc s e (fst r))) ->
  let acc := fold_right (opt_step acc_fn) c (combine l news) in
  firstn B acc = firstn B c /\ B <= length acc /\ P acc.
Proof.
  intros Hc. induction l as [|[[s e] gs] l IH]; intros news B Hs Hb HB Hstep; cbn [combine fold_right];
    [now repeat split|].
  destruct news as [|r news]; cbn [combine fold_right]; [now repeat split|].
  cbn [sorted_from] in Hs. destruct Hs as (H1 & H2 & H3).
  assert (He : e <= length c) by (apply (Hb s e gs); now left).
  destruct (IH news e H3 (fun s' e' gs' Hin => Hb s' e' gs' (or_intror Hin)) He
              (fun acc s' e' gs' r' Hin => Hstep acc s' e' gs' r' (or_intror Hin))) as (I1 & I2 & I3).
  set (acc' := fold_right (opt_step acc_fn) c (combine l news)) in *.
  assert (Hf : firstn B acc' = firstn B c) by (apply (firstn_le_eq acc' c B e); [lia|exact I1]).
  cbn [opt_step]. destruct (acc_fn gs r) eqn:Ea; [|repeat split; try assumption; lia].
  repeat split.
  - rewrite firstn_splice by lia. exact Hf.
  - rewrite splice_length by lia. lia.
  - apply (Hstep acc' s e gs r); try assumption; [now left|exact (slice_firstn acc' c s e I1)].
Qed.

Lemma optimize_inv (P : circuit -> Prop) acc_fn c news : P c ->
  (forall acc s e gs r, In ((s, e, gs), r) (combine (sections c) news) -> acc_fn gs r = true ->
     s < e -> e <= length acc -> slice acc s e = slice c s e -> P acc -> P (splice acc s e (fst r))) ->
  P (optimize_gen acc_fn c news).
Proof.
  intros Hc Hstep. apply (fold_steps_inv P acc_fn c Hc (sections c) news 0 (sections_sorted c)); [|lia|exact Hstep].
  intros s e gs Hin. now apply (section_bounds c s e gs).
Qed.

Definition feq (a b : nat -> bool) : Prop := forall q, a q = b q.
Definition acts_alike (c1 c2 : circuit) : Prop := forall f, opt_rel feq (fsim f c1) (fsim f c2).

Lemma fsim_app a b f : fsim f (a ++ b) = match fsim f a with Some g => fsim g b | None => None end.
Proof.
  revert f. induction a as [|x a IH]; intros f; cbn [app fsim]; [reflexivity|].
  destruct (cact_of x); [apply IH|apply IH|reflexivity].
Qed.

Lemma opt_rel_feq_trans a b c : opt_rel feq a b -> opt_rel feq b c -> opt_rel feq a c.
Proof.
  destruct a, b, c; cbn; try tauto. intros H1 H2 q. now rewrite H1, H2.
Qed.

Lemma acts_alike_app_l pre c1 c2 : acts_alike c1 c2 -> acts_alike (pre ++ c1) (pre ++ c2).
Proof.
  intros H f. rewrite !fsim_app. destruct (fsim f pre) as [g|]; [apply H|exact I].
Qed.

Lemma acts_alike_app_r post c1 c2 : acts_alike c1 c2 -> acts_alike (c1 ++ post) (c2 ++ post).
Proof.
  intros H f. rewrite !fsim_app. specialize (H f).
  destruct (fsim f c1) as [g1|], (fsim f c2) as [g2|]; cbn in H; try contradiction; [|exact I].
  apply fsim_ext. exact H.
Qed.

Section Abstract.
  (* U: whatever a circuit denotes (unitaries, channels, ...), composed in
     circuit order by [comp] *)
  Variable U : Type.
  Variable one : U.
  Variable comp : U -> U -> U.
  Hypothesis comp_assoc : forall a b c, comp a (comp b c) = comp (comp a b) c.
  Hypothesis comp_one_l : forall a, comp one a = a.
  Variable den : gate -> U.

  Definition den_list (l : circuit) : U := fold_right (fun g acc => comp (den g) acc) one l.

  Lemma den_app a b : den_list (a ++ b) = comp (den_list a) (den_list b).
  Proof.
    induction a as [|x a IH]; cbn [app den_list fold_right].
    - now rewrite comp_one_l.
    - fold (den_list (a ++ b)). fold (den_list a). now rewrite IH, comp_assoc.
  Qed.

  Theorem splice_preserves_den c s e new :
    s <= e -> den_list (slice c s e) = den_list new -> den_list (splice c s e new) = den_list c.
  Proof.
    intros Hse H. rewrite (circuit_split3 c s e Hse) at 2. unfold splice.
    now rewrite !den_app, H.
  Qed.

  (* the whole optimizer: every accepted replacement denotes what its slice denotes *)
  Definition replacements_ok (acc_fn : circuit -> resynth -> bool) (c : circuit) (l : list (sec * resynth)) : Prop :=
    forall s e gs r, In ((s, e, gs), r) l -> acc_fn gs r = true -> den_list (fst r) = den_list (slice c s e).

  Theorem optimize_preserves_den acc_fn c news :
    replacements_ok acc_fn c (combine (sections c) news) ->
    den_list (optimize_gen acc_fn c news) = den_list c.
  Proof.
    intros Hok. apply (optimize_inv (fun acc => den_list acc = den_list c)); [reflexivity|].
    intros acc s e gs r Hin Ha Hse _ Hsl <-. apply splice_preserves_den; [lia|].
    rewrite Hsl. symmetry. exact (Hok s e gs r Hin Ha).
  Qed.
End Abstract.

(* the hypotheses of the section are satisfiable: state transformers under composition *)
Example abstract_instance (S : Type) (den : gate -> S -> S) c s e new :
  s <= e ->
  den_list (S -> S) (fun x => x) (fun a b x => b (a x)) den (slice c s e) =
  den_list (S -> S) (fun x => x) (fun a b x => b (a x)) den new ->
  den_list (S -> S) (fun x => x) (fun a b x => b (a x)) den (splice c s e new) =
  den_list (S -> S) (fun x => x) (fun a b x => b (a x)) den c.
Proof. apply splice_preserves_den; reflexivity. Qed.

Lemma accept_len (gs : circuit) (r : resynth) : accept gs r = true -> length (fst r) <= length gs.
Proof. unfold accept. rewrite !andb_true_iff. intros [[H _] _]. now apply Nat.leb_le. Qed.

Theorem opt_no_larger : forall c news, length (optimize c news) <= length c.
Proof.
  intros c news. apply (optimize_inv (fun acc => length acc <= length c)); [lia|].
  intros acc s e gs r Hin Ha Hse He _ Hacc. apply in_combine_l, section_bounds in Hin.
  apply accept_len in Ha. rewrite splice_length by lia. lia.
Qed.

Lemma acts_alike_refl c : acts_alike c c.
Proof. intros f. apply fsim_ext. now intros q. Qed.
Lemma acts_alike_trans a b c : acts_alike a b -> acts_alike b c -> acts_alike a c.
Proof. intros H1 H2 f. eapply opt_rel_feq_trans; [apply H1|apply H2]. Qed.

Local Open Scope N_scope.

Definition qubits_in (nq : nat) (c : circuit) : bool :=
  forallb (fun g => forallb (fun q => Nat.ltb q nq) (gqs g)) c.

Definition tables_diff (nq : nat) (t1 t2 : list N) : option nat :=
  find (fun q => negb (tt_diff (tt_mask nq) (nth q t1 0) (nth q t2 0) =? 0)) (seq 0 nq).

(* None: not decidable here (a gate is not classical, or uses a qubit >= nq);
   Some None: equivalent; Some (Some q): qubit q ends differently on some basis state *)
Definition circ_compare (nq : nat) (c1 c2 : circuit) : option (option nat) :=
  if qubits_in nq c1 && qubits_in nq c2 then
    match sim (tt_alg (tt_mask nq)) (input_tables nq) c1, sim (tt_alg (tt_mask nq)) (input_tables nq) c2 with
    | Some t1, Some t2 => Some (tables_diff nq t1 t2)
    | _, _ => None
    end
  else None.

Definition circ_equiv (nq : nat) (c1 c2 : circuit) : bool :=
  match circ_compare nq c1 c2 with Some None => true | _ => false end.

Lemma cact_flip_in g cs t : cact_of g = CFlip cs t -> In t (gqs g) /\ incl cs (gqs g).
Proof.
  unfold cact_of. intros H.
  assert (G : forall nc, (if Nat.eqb (length (gqs g)) (S nc) then CFlip (removelast (gqs g)) (last (gqs g) 0%nat) else CNone) = CFlip cs t ->
              In t (gqs g) /\ incl cs (gqs g)).
  { intros nc E. destruct (Nat.eqb_spec (length (gqs g)) (S nc)) as [Hl|]; [|discriminate].
    injection E as <- <-. assert (Hne : gqs g <> []) by (intros E0; rewrite E0 in Hl; discriminate).
    pose proof (app_removelast_last 0%nat Hne) as Hs. split.
    - rewrite Hs at 2. apply in_or_app. right. now left.
    - intros x Hx. rewrite Hs. apply in_or_app. now left. }
  destruct (gkind g) as [b| | | | |n|b n| |]; try discriminate;
    try (destruct b; try discriminate); try (now apply (G _ H)).
Qed.

Lemma qubits_in_cons nq g c : qubits_in nq (g :: c) = true ->
  (forall q, In q (gqs g) -> (q < nq)%nat) /\ qubits_in nq c = true.
Proof.
  unfold qubits_in. cbn [forallb]. rewrite andb_true_iff. intros [H1 H2]. split; [|exact H2].
  intros q Hq. rewrite forallb_forall in H1. apply Nat.ltb_lt. now apply H1.
Qed.

(* a circuit on qubits < nq: the result on those qubits depends only on them,
   and every other qubit keeps its value *)
Lemma fsim_frame nq c : qubits_in nq c = true -> forall f f0,
  (forall q, (q < nq)%nat -> f q = f0 q) ->
  match fsim f c, fsim f0 c with
  | Some h, Some h0 => (forall q, (q < nq)%nat -> h q = h0 q) /\ (forall q, (nq <= q)%nat -> h q = f q)
  | None, None => True
  | _, _ => False
  end.
Proof.
  induction c as [|g c IH]; intros Hq f f0 Hf; cbn [fsim]; [now split|].
  destruct (qubits_in_cons nq g c Hq) as [Hg Hc].
  destruct (cact_of g) as [cs t| |] eqn:Ea; [|now apply IH|exact I].
  destruct (cact_flip_in g cs t Ea) as [Ht Hcs].
  assert (Hff : forall q, (q < nq)%nat -> fflip f cs t q = fflip f0 cs t q).
  { intros q Hlt. unfold fflip. destruct (Nat.eqb q t); [|now apply Hf].
    rewrite (Hf t) by now apply Hg. f_equal.
    clear Ea. induction cs as [|x cs IHcs]; cbn [forallb]; [reflexivity|].
    rewrite (Hf x) by (apply Hg, Hcs; now left). f_equal. apply IHcs. intros y Hy. apply Hcs. now right. }
  specialize (IH Hc (fflip f cs t) (fflip f0 cs t) Hff).
  destruct (fsim (fflip f cs t) c) as [h|], (fsim (fflip f0 cs t) c) as [h0|]; try exact IH.
  destruct IH as [I1 I2]. split; [exact I1|]. intros q Hge. rewrite I2 by exact Hge.
  unfold fflip. destruct (Nat.eqb_spec q t) as [->|]; [|reflexivity].
  specialize (Hg t Ht). lia.
Qed.

(* every state of the qubits < nq is a basis state number *)
Lemma state_number nq (f : nat -> bool) : exists x, x < pow2n nq /\ forall q, (q < nq)%nat -> basis nq x q = f q.
Proof.
  set (l := map f (seq 0 nq)). assert (Hl : length l = nq) by (unfold l; now rewrite map_length, seq_length).
  exists (bits_val l). split.
  - pose proof (bits_val_bound l) as H. now rewrite Hl in H.
  - intros q Hq. unfold basis. destruct (Nat.ltb_spec q nq); [|lia].
    rewrite <- (nbits_testbit nq (bits_val l) q Hq). rewrite <- Hl at 1. rewrite nbits_bits_val.
    unfold l. rewrite (nth_indep _ false (f 0%nat)) by (rewrite map_length, seq_length; exact Hq).
    rewrite map_nth, seq_nth by exact Hq. reflexivity.
Qed.

Lemma tables_diff_none nq t1 t2 :
  tables_diff nq t1 t2 = None <->
  forall q x, (q < nq)%nat -> x < pow2n nq -> proj x t1 q = proj x t2 q.
Proof.
  unfold tables_diff. split.
  - intros H q x Hq Hx. pose proof (find_none _ _ H q) as Hn. cbn beta in Hn.
    assert (Hin : In q (seq 0 nq)) by (apply in_seq; lia). specialize (Hn Hin).
    apply negb_false_iff, N.eqb_eq in Hn. rewrite tt_diff_spec in Hn. unfold proj. apply Hn. now apply mask_lt.
  - intros H. destruct (find _ (seq 0 nq)) as [q|] eqn:Ef; [|reflexivity].
    apply find_some in Ef as [Hin Hb]. apply in_seq in Hin. apply negb_true_iff, N.eqb_neq in Hb.
    exfalso. apply Hb. apply tt_diff_spec. intros x Hm. apply mask_lt in Hm. apply (H q x); [lia|exact Hm].
Qed.

Definition equal_on_all_states (c1 c2 : circuit) : Prop :=
  forall f : nat -> bool, exists f1 f2, fsim f c1 = Some f1 /\ fsim f c2 = Some f2 /\ forall q, f1 q = f2 q.

Theorem circ_equiv_correct nq c1 c2 :
  circ_equiv nq c1 c2 = true <->
  qubits_in nq c1 = true /\ qubits_in nq c2 = true /\
  all_classical c1 = true /\ all_classical c2 = true /\ equal_on_all_states c1 c2.
Proof.
  unfold circ_equiv, circ_compare.
  destruct (qubits_in nq c1) eqn:Q1; cbn [andb]; [|split; [discriminate|intros (H & _); discriminate]].
  destruct (qubits_in nq c2) eqn:Q2; cbn [andb]; [|split; [discriminate|intros (_ & H & _); discriminate]].
  set (m := tt_mask nq). set (it := input_tables nq).
  pose proof (sim_some (tt_alg m) c1 it) as S1. pose proof (sim_some (tt_alg m) c2 it) as S2.
  destruct (sim (tt_alg m) it c1) as [t1|] eqn:E1;
    [|split; [discriminate|intros (_ & _ & H & _); apply S1 in H as [? ?]; discriminate]].
  destruct (sim (tt_alg m) it c2) as [t2|] eqn:E2;
    [|split; [discriminate|intros (_ & _ & _ & H & _); apply S2 in H as [? ?]; discriminate]].
  assert (C1 : all_classical c1 = true) by (apply S1; now exists t1).
  assert (C2 : all_classical c2 = true) by (apply S2; now exists t2).
  split.
  - intros H. assert (Hd : tables_diff nq t1 t2 = None) by (destruct (tables_diff nq t1 t2); [discriminate|reflexivity]).
    rewrite tables_diff_none in Hd. repeat split; try assumption.
    intros f. destruct (state_number nq f) as (x & Hx & Hfx).
    destruct (sim_input_basis nq c1 t1 x E1 Hx) as (h1 & Hh1 & Hp1). destruct (sim_input_basis nq c2 t2 x E2 Hx) as (h2 & Hh2 & Hp2).
    pose proof (fsim_frame nq c1 Q1 f (basis nq x) (fun q Hq => eq_sym (Hfx q Hq))) as F1.
    pose proof (fsim_frame nq c2 Q2 f (basis nq x) (fun q Hq => eq_sym (Hfx q Hq))) as F2.
    rewrite Hh1 in F1. rewrite Hh2 in F2.
    destruct (fsim f c1) as [g1|]; [|contradiction]. destruct (fsim f c2) as [g2|]; [|contradiction].
    exists g1, g2. repeat split. intros q. destruct F1 as [A1 B1], F2 as [A2 B2].
    destruct (Nat.lt_ge_cases q nq) as [Hq|Hq].
    + rewrite A1, A2 by exact Hq. rewrite <- Hp1, <- Hp2. now apply Hd.
    + now rewrite B1, B2.
  - intros (_ & _ & _ & _ & H).
    assert (Hd : tables_diff nq t1 t2 = None).
    { apply tables_diff_none. intros q x Hq Hx.
      destruct (sim_input_basis nq c1 t1 x E1 Hx) as (h1 & Hh1 & Hp1). destruct (sim_input_basis nq c2 t2 x E2 Hx) as (h2 & Hh2 & Hp2).
      destruct (H (basis nq x)) as (f1 & f2 & Hf1 & Hf2 & Heq).
      rewrite Hp1, Hp2. congruence. }
    now rewrite Hd.
Qed.

(* a failing verdict is never given to circuits that act alike *)
Lemma circ_compare_witness nq c1 c2 q :
  circ_compare nq c1 c2 = Some (Some q) -> ~ equal_on_all_states c1 c2.
Proof.
  intros H Heq.
  assert (E : circ_equiv nq c1 c2 = true).
  { apply circ_equiv_correct. unfold circ_compare in H.
    destruct (qubits_in nq c1) eqn:Q1; [|discriminate]. destruct (qubits_in nq c2) eqn:Q2; [|discriminate].
    cbn [andb] in H.
    destruct (sim (tt_alg (tt_mask nq)) (input_tables nq) c1) as [t1|] eqn:E1; [|discriminate].
    destruct (sim (tt_alg (tt_mask nq)) (input_tables nq) c2) as [t2|] eqn:E2; [|discriminate].
    repeat split; try reflexivity; try assumption.
    - apply (sim_some (tt_alg (tt_mask nq)) c1 (input_tables nq)). now exists t1.
    - apply (sim_some (tt_alg (tt_mask nq)) c2 (input_tables nq)). now exists t2. }
  unfold circ_equiv in E. rewrite H in E. discriminate.
Qed.

Local Close Scope N_scope.
(* CX(0,1) CX(1,0) CX(0,1) exchanges the two qubits; its re-synthesis is a pure
   relabelling with no gates, which the acceptance test before fix 7930d24
   (accept_old) accepts *)
Definition cx_triple : circuit := [mkg KCX [0; 1] None; mkg KCX [1; 0] None; mkg KCX [0; 1] None].
