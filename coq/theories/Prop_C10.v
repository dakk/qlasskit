(* Prop_C10.v — "Compilation is pure", on the effects model of the public API
   (M_Effects.v). PARTIAL by nature: the action lists are a reading of the Python
   code; the correspondence run ties them to it by observing every live object
   after every operation of random histories. *)
From Coq Require Import List Arith Bool.
From QV Require Import BexpTT M_Effects P_Effects.
Import ListNotations.

(* every object keeps, through any history of pure operations, the content it had *)
Theorem C10_history_frame : forall (obj : Type) (dflt : obj) hs h,
  wf_history obj dflt h hs ->
  forall a, (a < length h)%nat -> nth a (fst (exec_history obj dflt h hs)) dflt = nth a h dflt.
Proof. intros obj dflt hs h. exact (history_frame obj dflt hs h). Qed.
Print Assumptions C10_history_frame.

(* the result of an operation depends only on the contents of its operands *)
Theorem C10_result_depends_on_operands_only : forall (obj : Type) (dflt : obj) h1 h2 s,
  wf_step obj h1 s -> wf_step obj h2 s ->
  (forall a, In a (s_args obj s) -> nth a h1 dflt = nth a h2 dflt) ->
  snd (exec_step obj dflt h1 s) = snd (exec_step obj dflt h2 s).
Proof.
  (* the result is the operation run on the contents of the operands *)
  intros obj dflt h1 h2 s H1 H2 Hag.
  rewrite (exec_step_pure obj dflt h1 s H1), (exec_step_pure obj dflt h2 s H2). cbn [snd].
  f_equal. f_equal. apply map_ext_in. exact Hag.
Qed.
Print Assumptions C10_result_depends_on_operands_only.

(* The operations as read off the source (op_grover_old: before fix b6f3638); objects are lists of numbers
   standing for "name :: gates". *)
Definition o := list nat.
Definition op_compile (content : o) : list (laction o) := [LAlloc o content].
Definition op_grover_fixed : list (laction o) :=     (* copy the oracle circuit, extend the copy *)
  [LCopy o (Arg 0); LUpdate o 0 (fun c => c ++ [99]); LCopy o (Loc 0)].
Definition op_grover_old : list (laction o) :=       (* extend the oracle's own circuit *)
  [LUpdateArg o 0 (fun c => c ++ [99]); LCopy o (Arg 0)].
Definition op_read_only : list (laction o) := [LCopy o (Arg 0)].   (* export / decompile / DJ / BV / Simon *)

Example C10_fixed_ops_are_pure :
  pure_op o op_grover_fixed = true /\ pure_op o op_read_only = true /\ pure_op o (op_compile [1;2]) = true.
Proof. repeat split; reflexivity. Qed.

(* non-vacuity, and Grover before fix b6f3638 refuted: with it the same
   operation gives a different result the second time and the oracle object changes *)
Example C10_old_grover_refuted :
  let h0 := [[7; 1; 2]] in
  let s := mkstep o [0] op_grover_old in
  let (h1, r1) := exec_step o [] h0 s in
  let (h2, r2) := exec_step o [] h1 s in
  r1 <> r2 /\ nth 0 h1 [] <> nth 0 h0 [].
Proof. cbv. split; discriminate. Qed.

Example C10_fixed_grover_history :
  let h0 := [[7; 1; 2]] in
  let s := mkstep o [0] op_grover_fixed in
  wf_history o [] h0 [s; s] /\
  (let (h1, r1) := exec_step o [] h0 s in let (h2, r2) := exec_step o [] h1 s in r1 = r2 /\ nth 0 h2 [] = nth 0 h0 []).
Proof. cbv. repeat split; repeat constructor. Qed.
