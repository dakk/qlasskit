(* Prop_C11.v — "Decompiled expressions describe exactly what the gates do".
   Statements about the model of Decompiler.decompile / __exps_of_section
   (M_Decompiler.v, the code as repaired by fixes 3c0d878 and db88034), for EVERY
   circuit and EVERY entry state.  The model is tied to /repo by the correspondence run of harness/c11.py, which
   also decides the property on the implementation's own output with sec_check. *)
From Coq Require Import List Bool NArith Arith.
From QV Require Import Bexp BexpTT Circ Compiled M_Decompiler P_Decompiler.
Import ListNotations.

(* expressions: for every gate list on which __exps_of_section returns and every
   entry state f (BSym q = value of qubit q at entry): the gates are classical,
   each listed expression evaluates to the exit value of its qubit, and every
   qubit without an expression keeps its value *)
Theorem C11_exps_sound : forall gs L, exps_of_section gs = Ok L ->
  forall f : nat -> bool,
  exists f', fsim f gs = Some f' /\
    (forall q e, In (q, e) L -> beval f e = f' q) /\
    (forall q, (forall e, ~ In (q, e) L) -> f' q = f q).
Proof.
  intros gs L H f. apply exps_of_section_ok in H as (m & Er & ->).
  destruct (exps_run_sound f gs [] m f Er (describes_init f)) as (f' & Hf & Hr).
  pose proof (exps_run_nodup gs [] m Er (NoDup_nil _)) as Hn.
  exists f'. split; [exact Hf|]. split.
  - intros q e Hin. unfold drop_own in Hin. apply filter_In in Hin as [Hin _].
    specialize (Hr q). unfold egetd in Hr. now rewrite (in_eget m q e Hn Hin) in Hr.
  - intros q Hno. specialize (Hr q). unfold egetd in Hr.
    destruct (eget m q) as [e|] eqn:Eg; [|now rewrite <- Hr].
    apply eget_in in Eg. destruct (is_own q e) eqn:Eo.
    + destruct e; try discriminate. cbn [is_own] in Eo. apply Nat.eqb_eq in Eo. subst. now rewrite <- Hr.
    + exfalso. apply (Hno e). unfold drop_own. apply filter_In. split; [exact Eg|]. cbn [fst snd]. now rewrite Eo.
Qed.
Print Assumptions C11_exps_sound.

(* a qubit is listed at most once *)
Theorem C11_exps_keys_distinct : forall gs L, exps_of_section gs = Ok L -> NoDup (keys L).
Proof. exact exps_keys_nodup. Qed.
Print Assumptions C11_exps_keys_distinct.

(* decompile returns (never raises) on every circuit whose classical gates have
   the arity gates.apply enforces: the theorems above are about every such circuit *)
Theorem C11_decompile_total : forall c, Forall zb_wf c -> exists r, decompile c = Ok r.
Proof. exact decompile_total. Qed.
Print Assumptions C11_decompile_total.

(* sections: (s, e, gs) is reported iff [s, e) is a maximal run of classical
   gates (first and last gate classical, only classical gates and barriers
   inside, not extensible on either side even across barriers) and gs is the
   run without its barriers *)
Theorem C11_sections_exact : forall c s e gs,
  In (s, e, gs) (sections c) <-> maximal_run c s e /\ gs = filter is_zb (slice c s e).
Proof. exact sections_exact. Qed.
Print Assumptions C11_sections_exact.

(* reported left to right, pairwise disjoint *)
Theorem C11_sections_sorted : forall c, sorted_from 0 (sections c).
Proof. exact sections_sorted. Qed.
Print Assumptions C11_sections_sorted.

(* the per-section decision used on the implementation's output: sec_check
   answers Some 0 exactly when, on each of the 2^nq basis states, the gates are
   classical and every qubit's exit value is the value of its expression
   (its own entry value when it has none) *)
Theorem C11_section_check_sound_and_complete : forall nq gs ex,
  sec_check nq gs ex = Some 0%N <-> all_classical gs = true /\ sec_holds nq gs ex.
Proof. exact sec_check_correct. Qed.
Print Assumptions C11_section_check_sound_and_complete.

(* the end index before fix 3c0d878: refuted, and exact under its guard *)
Theorem C11_sections_exact_old_refuted :
  exists c s e gs, In (s, e, gs) (sections_old c) /\ ~ maximal_run c s e.
Proof.
  exists wit_two_barriers, 0, 3, [mkg (K1 BX) [0] None; mkg KCX [0; 1] None]. split.
  - vm_compute. now left.
  - intros (_ & _ & H & _). vm_compute in H. discriminate.
Qed.
Print Assumptions C11_sections_exact_old_refuted.

Theorem C11_sections_old_agree_iff_guard : forall c, sections_old c = sections c <-> old_guard c = true.
Proof. intros c. apply scan_old_iff. now left. Qed.
Print Assumptions C11_sections_old_agree_iff_guard.

Theorem C11_sections_exact_old_partial : forall c, old_guard c = true -> forall s e gs,
  In (s, e, gs) (sections_old c) <-> maximal_run c s e /\ gs = filter is_zb (slice c s e).
Proof. intros c Hg s e gs. rewrite (proj2 (C11_sections_old_agree_iff_guard c) Hg). apply sections_exact. Qed.
Print Assumptions C11_sections_exact_old_partial.

Theorem C11_identity_gate_old_refuted :
  exists c, decompile_old c = Err 1%N /\ exists r, decompile c = Ok r.
Proof.
  exists [mkg (K1 BI) [0] None; mkg (K1 BX) [1] None]. split; [reflexivity|]. eexists. vm_compute. reflexivity.
Qed.
Print Assumptions C11_identity_gate_old_refuted.

Definition ex_circ : circuit :=
  [mkg KBarrier [] None; mkg (K1 BX) [0] None; mkg KBarrier [] None; mkg KCX [0; 1] None;
   mkg KBarrier [] None; mkg KBarrier [] None; mkg (K1 BH) [2] None; mkg KCCX [0; 1; 2] None].

Example C11_example_sections :
  sections ex_circ = [(1, 4, [mkg (K1 BX) [0] None; mkg KCX [0; 1] None]); (7, 8, [mkg KCCX [0; 1; 2] None])].
Proof. reflexivity. Qed.
Example C11_example_old_differs : sections_old ex_circ <> sections ex_circ /\ old_guard ex_circ = false.
Proof. split; [discriminate|reflexivity]. Qed.
Example C11_example_exps :
  exps_of_section [mkg (K1 BX) [0] None; mkg KCX [0; 1] None] =
  Ok [(0, BNot (BSym 0)); (1, BXor [BNot (BSym 0); BSym 1])].
Proof. reflexivity. Qed.
Example C11_example_check_pass :
  sec_check 2 [mkg (K1 BX) [0] None; mkg KCX [0; 1] None] [(0, BNot (BSym 0)); (1, BXor [BSym 1; BNot (BSym 0)])] = Some 0%N.
Proof. vm_compute. reflexivity. Qed.
Example C11_example_check_fail :
  exists d, sec_check 2 [mkg (K1 BX) [0] None; mkg KCX [0; 1] None] [(0, BNot (BSym 0))] = Some d /\ d <> 0%N.
Proof. eexists. split; [vm_compute; reflexivity|discriminate]. Qed.
