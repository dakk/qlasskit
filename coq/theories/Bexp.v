(* Bexp.v — boolean expressions with n-ary connectives (the shape of the sympy
   trees qlasskit manipulates), evaluated in any "bit algebra": booleans, or
   truth tables packed in a binary number (all assignments at once). *)
From Coq Require Import List Bool NArith Arith Lia.
Import ListNotations.

Inductive bexp :=
| BConst (b : bool)
| BSym (i : nat)
| BNot (e : bexp)
| BAnd (l : list bexp)
| BOr (l : list bexp)
| BXor (l : list bexp)
| BIte (c t e : bexp)
| BImp (a b : bexp).

Section bexp_ind2.
  Variable P : bexp -> Prop.
  Hypotheses (Hc : forall b, P (BConst b)) (Hs : forall i, P (BSym i))
    (Hn : forall e, P e -> P (BNot e))
    (Ha : forall l, Forall P l -> P (BAnd l)) (Ho : forall l, Forall P l -> P (BOr l))
    (Hx : forall l, Forall P l -> P (BXor l))
    (Hi : forall c t e, P c -> P t -> P e -> P (BIte c t e))
    (Hm : forall a b, P a -> P b -> P (BImp a b)).
  Fixpoint bexp_ind2 (e : bexp) : P e :=
    let go := fix go (l : list bexp) : Forall P l :=
      match l with [] => Forall_nil _ | x :: r => Forall_cons x (bexp_ind2 x) (go r) end in
    match e with
    | BConst b => Hc b | BSym i => Hs i | BNot e => Hn e (bexp_ind2 e)
    | BAnd l => Ha l (go l) | BOr l => Ho l (go l) | BXor l => Hx l (go l)
    | BIte c t e => Hi c t e (bexp_ind2 c) (bexp_ind2 t) (bexp_ind2 e)
    | BImp a b => Hm a b (bexp_ind2 a) (bexp_ind2 b)
    end.
End bexp_ind2.

(* Q holds of the immediate arguments of the node e. Induction over bexp then has one
   case for all node kinds (bexp_args_ind). *)
Definition args_sat (Q : bexp -> Prop) (e : bexp) : Prop :=
  match e with
  | BConst _ | BSym _ => True
  | BNot x => Q x
  | BAnd l | BOr l | BXor l => Forall Q l
  | BIte c t f => Q c /\ Q t /\ Q f
  | BImp a b => Q a /\ Q b
  end.

Lemma bexp_args_ind (Q : bexp -> Prop) : (forall e, args_sat Q e -> Q e) -> forall e, Q e.
Proof. intros H e. induction e using bexp_ind2; apply H; cbn [args_sat]; auto. Qed.

Lemma Forall_mp {A} (P Q : A -> Prop) l : Forall (fun x => P x -> Q x) l -> Forall P l -> Forall Q l.
Proof. induction 1 as [|x r Hx _ IH]; intros H; [constructor|]. apply Forall_cons_iff in H as [H1 H2]. auto. Qed.

(* And, Or and Xor are evaluated by a right fold over the arguments: a map h that
   commutes with the operation commutes with the fold *)
Lemma fold_right_hom {X A B} (h : A -> B) (opA : A -> A -> A) (opB : B -> B -> B) uA uB (f : X -> A) (g : X -> B) l :
  h uA = uB -> (forall x y, h (opA x y) = opB (h x) (h y)) -> Forall (fun x => h (f x) = g x) l ->
  h (fold_right (fun x acc => opA (f x) acc) uA l) = fold_right (fun x acc => opB (g x) acc) uB l.
Proof. intros Hu Hop. induction 1 as [|x r Hx _ IHr]; cbn [fold_right]; [exact Hu|now rewrite Hop, Hx, IHr]. Qed.

Lemma fold_right_map_ext {A B C} (op : B -> C -> C) (u : C) (f g : A -> B) (T : A -> A) l :
  Forall (fun x => f (T x) = g x) l ->
  fold_right (fun x acc => op (f x) acc) u (map T l) = fold_right (fun x acc => op (g x) acc) u l.
Proof. induction 1 as [|x r Hx _ IHr]; cbn [map fold_right]; [reflexivity|now rewrite Hx, IHr]. Qed.

Record balg := mkalg {
  carrier :> Type;
  b_false : carrier; b_true : carrier;
  b_and : carrier -> carrier -> carrier;
  b_or : carrier -> carrier -> carrier;
  b_xor : carrier -> carrier -> carrier;
  b_not : carrier -> carrier }.

Definition bool_alg : balg := mkalg bool false true andb orb xorb negb.

(* truth tables over the assignments selected by the mask [m] *)
Definition tt_alg (m : N) : balg := mkalg N 0%N m N.land N.lor N.lxor (fun a => N.ldiff m a).

Section Geval.
  Variable A : balg.
  Variable env : nat -> A.
  Fixpoint geval (e : bexp) : A :=
    match e with
    | BConst b => if b then b_true A else b_false A
    | BSym i => env i
    | BNot e => b_not A (geval e)
    | BAnd l => fold_right (fun x acc => b_and A (geval x) acc) (b_true A) l
    | BOr l => fold_right (fun x acc => b_or A (geval x) acc) (b_false A) l
    | BXor l => fold_right (fun x acc => b_xor A (geval x) acc) (b_false A) l
    | BIte c t e => b_or A (b_and A (geval c) (geval t)) (b_and A (b_not A (geval c)) (geval e))
    | BImp a b => b_or A (b_not A (geval a)) (geval b)
    end.
End Geval.

Definition beval (env : nat -> bool) (e : bexp) : bool := geval bool_alg env e.
Definition tt_eval (m : N) (env : nat -> N) (e : bexp) : N := geval (tt_alg m) env e.

Section Hom.
  Variables (A B : balg) (h : A -> B).
  Hypotheses (h_false : h (b_false A) = b_false B) (h_true : h (b_true A) = b_true B)
    (h_and : forall x y, h (b_and A x y) = b_and B (h x) (h y))
    (h_or : forall x y, h (b_or A x y) = b_or B (h x) (h y))
    (h_xor : forall x y, h (b_xor A x y) = b_xor B (h x) (h y))
    (h_not : forall x, h (b_not A x) = b_not B (h x)).

  Lemma geval_hom env e : h (geval A env e) = geval B (fun i => h (env i)) e.
  Proof.
    induction e as [e IH] using bexp_args_ind.
    destruct e as [b|i|e|l|l|l|c t e|a b]; cbn [geval args_sat] in *; try (now apply fold_right_hom).
    - destruct b; assumption.
    - reflexivity.
    - now rewrite h_not, IH.
    - destruct IH as (IHc & IHt & IHe). now rewrite h_or, !h_and, h_not, IHc, IHt, IHe.
    - destruct IH as (IHa & IHb). now rewrite h_or, h_not, IHa, IHb.
  Qed.
End Hom.

(* reading one assignment out of a packed truth table *)
Lemma tt_eval_spec m env e x :
  N.testbit m x = true ->
  N.testbit (tt_eval m env e) x = beval (fun i => N.testbit (env i) x) e.
Proof.
  intros Hm. unfold tt_eval, beval.
  apply (geval_hom (tt_alg m) bool_alg (fun t => N.testbit t x)); cbn.
  - apply (N.bits_0 x).
  - exact Hm.
  - intros; apply N.land_spec.
  - intros; apply N.lor_spec.
  - intros; apply N.lxor_spec.
  - intros y. rewrite N.ldiff_spec, Hm. reflexivity.
Qed.

Lemma beval_and env l : beval env (BAnd l) = forallb (beval env) l.
Proof. unfold beval; cbn [geval]. induction l as [|x r IH]; cbn [fold_right forallb]; [reflexivity|now rewrite IH]. Qed.
Lemma beval_or env l : beval env (BOr l) = existsb (beval env) l.
Proof. unfold beval; cbn [geval]. induction l as [|x r IH]; cbn [fold_right existsb]; [reflexivity|now rewrite IH]. Qed.
Lemma beval_xor env l : beval env (BXor l) = fold_right xorb false (map (beval env) l).
Proof. unfold beval; cbn [geval]. induction l as [|x r IH]; cbn [fold_right map]; [reflexivity|now rewrite IH]. Qed.
Lemma beval_sym env i : beval env (BSym i) = env i.
Proof. reflexivity. Qed.
Lemma beval_not env e : beval env (BNot e) = negb (beval env e).
Proof. reflexivity. Qed.
Lemma beval_ite env c t e : beval env (BIte c t e) = if beval env c then beval env t else beval env e.
Proof. unfold beval; cbn [geval]; cbn. destruct (geval bool_alg env c), (geval bool_alg env t), (geval bool_alg env e); reflexivity. Qed.
Lemma beval_imp env a b : beval env (BImp a b) = implb (beval env a) (beval env b).
Proof. unfold beval; cbn [geval]; cbn. destruct (geval bool_alg env a), (geval bool_alg env b); reflexivity. Qed.

Fixpoint bsyms (e : bexp) : list nat :=
  match e with
  | BConst _ => []
  | BSym i => [i]
  | BNot e => bsyms e
  | BAnd l | BOr l | BXor l => flat_map bsyms l
  | BIte c t e => bsyms c ++ bsyms t ++ bsyms e
  | BImp a b => bsyms a ++ bsyms b
  end.

Definition reads (P : nat -> Prop) (e : bexp) : Prop := forall i, In i (bsyms e) -> P i.

Lemma forall_in_app (P : nat -> Prop) (a b : list nat) :
  (forall i, In i (a ++ b) -> P i) <-> (forall i, In i a -> P i) /\ (forall i, In i b -> P i).
Proof.
  split.
  - intros H. split; intros i Hi; apply H, in_or_app; auto.
  - intros [Ha Hb] i Hi. apply in_app_or in Hi as [Hi|Hi]; auto.
Qed.

Lemma forall_in_bsyms_args (P : nat -> Prop) l : (forall i, In i (flat_map bsyms l) -> P i) <-> Forall (reads P) l.
Proof.
  rewrite Forall_forall. split.
  - intros H x Hx i Hi. apply H, in_flat_map. now exists x.
  - intros H i Hi. apply in_flat_map in Hi as (x & Hx & Hi). exact (H x Hx i Hi).
Qed.

Lemma reads_node P e :
  reads P e <-> match e with BConst _ => True | BSym i => P i | _ => args_sat (reads P) e end.
Proof.
  unfold reads. destruct e as [b|i|x|l|l|l|c t f|a b]; cbn [args_sat bsyms]; try apply forall_in_bsyms_args.
  - split; [trivial|intros _ i []].
  - split; [intros H; apply H; now left|intros H k [<-|[]]; exact H].
  - reflexivity.
  - now rewrite !forall_in_app.
  - apply forall_in_app.
Qed.

Lemma geval_ext (A : balg) env1 env2 e :
  reads (fun i => env1 i = env2 i) e -> geval A env1 e = geval A env2 e.
Proof.
  induction e as [e IH] using bexp_args_ind. intros H. apply reads_node in H.
  destruct e as [b|i|e|l|l|l|c t e|a b]; cbn [geval args_sat] in *;
    try (apply (fold_right_hom (fun x => x)); [reflexivity|reflexivity|exact (Forall_mp _ _ l IH H)]).
  - reflexivity.
  - exact H.
  - now rewrite IH.
  - destruct IH as (IHc & IHt & IHe), H as (Hc & Ht & He). now rewrite IHc, IHt, IHe.
  - destruct IH as (IHa & IHb), H as (Ha & Hb). now rewrite IHa, IHb.
Qed.

Lemma beval_syms_ext env1 env2 e :
  reads (fun i => env1 i = env2 i) e -> beval env1 e = beval env2 e.
Proof. apply (geval_ext bool_alg). Qed.
